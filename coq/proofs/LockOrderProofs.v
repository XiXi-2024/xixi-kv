(* LockOrderProofs.v — the lock-ordering discipline excludes deadlock (C09). *)
From Coq Require Import List Arith Bool Lia.
From KV Require Import LockOrder ListLemmas.
Import ListNotations.

Definition Disc (s : list thr) : Prop := Forall (fun t => ordered_b (t_held t) (t_rest t) = true) s.

Lemma holds_lock_In h l : holds_lock h l = true -> exists x, In x h /\ rank x = rank l.
Proof.
  unfold holds_lock. intros H. apply existsb_exists in H. destruct H as (x & Hx & He).
  unfold lock_eqb in He. apply andb_true_iff in He. destruct He as [A _]. apply Nat.eqb_eq in A.
  exists x. split; [exact Hx|unfold rank; symmetry; exact A].
Qed.

Lemma ordered_b_acq h l r : ordered_b h (Acq l :: r) = true <->
  (forall x, In x h -> rank x < rank l) /\ ordered_b (l :: h) r = true.
Proof.
  cbn [ordered_b]. rewrite andb_true_iff, forallb_forall.
  split; intros [A B]; (split; [|exact B]); intros x Hx; apply Nat.ltb_lt, A, Hx.
Qed.
Lemma ordered_b_rel h l r : ordered_b h (Rel l :: r) = true <->
  holds_lock h l = true /\ ordered_b (remove_lock l h) r = true.
Proof. apply andb_true_iff. Qed.

(* in a deadlocked state that follows the discipline, locks of arbitrarily high rank are waited for:
   the holder of a lock that is waited for is not finished, so it waits itself, for a lock ranked
   above everything it holds *)
Lemma deadlock_chain s : Disc s -> deadlocked s -> forall n, exists l, sys_holds s l /\ n <= rank l.
Proof.
  intros HD [(t0 & Ht0 & Hne0) Hall]. unfold Disc in HD. rewrite Forall_forall in HD. induction n as [|n IH].
  - destruct (Hall t0 Ht0 Hne0) as (l & r & _ & Hh). exists l. split; [exact Hh|lia].
  - destruct IH as (l & (t & Ht & Hh) & Hn). pose proof (HD t Ht) as Ho.
    destruct (holds_lock_In _ _ Hh) as (x & Hx & Hrx).
    assert (Hne : t_rest t <> []) by (intros E; rewrite E in Ho; destruct (t_held t); [destruct Hx|discriminate]).
    destruct (Hall t Ht Hne) as (l' & r & Hr & Hh'). rewrite Hr in Ho. apply ordered_b_acq in Ho.
    exists l'. split; [exact Hh'|]. pose proof (proj1 Ho x Hx). lia.
Qed.

Theorem discipline_excludes_deadlock s B :
  Disc s -> (forall l, sys_holds s l -> rank l < B) -> ~ deadlocked s.
Proof.
  intros HD Hb Hdl. destruct (deadlock_chain s HD Hdl B) as (l & Hh & Hr). pose proof (Hb l Hh). lia.
Qed.

Theorem step_keeps_discipline s i s' : Disc s -> sys_step s i = Some s' -> Disc s'.
Proof.
  intros HD Hs. unfold sys_step in Hs. destruct (nth_error s i) as [[h es]|] eqn:En; [|discriminate].
  pose proof (proj1 (Forall_forall _ _) HD _ (nth_error_In _ _ En)) as Ho. cbn [t_held t_rest] in Ho.
  destruct es as [|[l|l] r]; [discriminate|destruct (sys_free s l); [|discriminate]|];
    injection Hs as <-; rewrite set_thr_upd; (apply Forall_upd; [exact HD|]); cbn [t_held t_rest].
  - exact (proj2 (proj1 (ordered_b_acq _ _ _) Ho)).
  - exact (proj2 (proj1 (ordered_b_rel _ _ _) Ho)).
Qed.

Lemma ordered_concat : forall a h b, ordered_b h a = true -> ordered_b [] b = true -> ordered_b h (a ++ b) = true.
Proof.
  induction a as [|[l|l] a IH]; intros h b Ha Hb; cbn [app].
  - destruct h; [exact Hb|discriminate].
  - apply ordered_b_acq in Ha. apply ordered_b_acq. split; [exact (proj1 Ha)|]. apply IH; [exact (proj2 Ha)|exact Hb].
  - apply ordered_b_rel in Ha. apply ordered_b_rel. split; [exact (proj1 Ha)|]. apply IH; [exact (proj2 Ha)|exact Hb].
Qed.
Theorem client_follows_discipline (calls : list (list ev)) :
  Forall (fun c => ordered_b [] c = true) calls -> ordered_b [] (concat calls) = true.
Proof.
  induction 1 as [|c cs Hc _ IH]; [reflexivity|]. cbn [concat]. apply ordered_concat; assumption.
Qed.

Definition Bounded (B : nat) (s : list thr) : Prop :=
  forall t, In t s -> (forall l, In l (t_held t) -> rank l < B) /\ (forall l, In (Acq l) (t_rest t) -> rank l < B).

Lemma remove_lock_sub l h x : In x (remove_lock l h) -> In x h.
Proof.
  induction h as [|y h IH]; cbn [remove_lock]; [intros []|]. destruct (lock_eqb y l); [intros H; right; exact H|].
  intros [<-|H]; [left; reflexivity|right; auto].
Qed.

Theorem step_keeps_bound B s i s' : Bounded B s -> sys_step s i = Some s' -> Bounded B s'.
Proof.
  intros HB Hs. unfold sys_step in Hs. destruct (nth_error s i) as [[h es]|] eqn:En; [|discriminate].
  destruct (HB _ (nth_error_In _ _ En)) as [Hh Hr]. cbn [t_held t_rest] in *.
  (* the thread that moved holds what it held or what it was about to take, and has less left to do *)
  assert (Hnew : forall h' r, (forall x, In x h' -> In x h \/ In (Acq x) es) -> (forall x, In x r -> In x es) ->
            Bounded B (set_thr s i (mkThr h' r))).
  { intros h' r Hh' Hr' t Ht. rewrite set_thr_upd in Ht. destruct (In_upd _ _ _ _ Ht) as [->|Ht']; [|exact (HB t Ht')].
    cbn [t_held t_rest]. split; [intros x Hx; destruct (Hh' x Hx); auto|intros x Hx; apply Hr, Hr', Hx]. }
  destruct es as [|[l|l] r]; [discriminate|destruct (sys_free s l); [|discriminate]|]; injection Hs as <-; apply Hnew.
  - (* acquire: held *) intros x [<-|Hx]; [right; left; reflexivity|left; exact Hx].
  - (* acquire: rest *) intros x Hx. right. exact Hx.
  - (* release: held *) intros x Hx. left. exact (remove_lock_sub _ _ _ Hx).
  - (* release: rest *) intros x Hx. right. exact Hx.
Qed.

Fixpoint sys_run (s : list thr) (sched : list nat) : list thr :=
  match sched with
  | [] => s
  | i :: r => match sys_step s i with Some s' => sys_run s' r | None => sys_run s r end
  end.

Theorem never_deadlocked B s sched :
  Disc s -> Bounded B s -> ~ deadlocked (sys_run s sched).
Proof.
  intros HD HB.
  destruct (orun_inv sys_step (fun s => Disc s /\ Bounded B s)
              (fun s i s' H E => conj (step_keeps_discipline s i s' (proj1 H) E) (step_keeps_bound B s i s' (proj2 H) E))
              sched s (conj HD HB)) as [HD' HB'].
  apply (discipline_excludes_deadlock _ B HD'). intros l (t & Ht & Hh).
  destruct (holds_lock_In _ _ Hh) as (x & Hx & <-). exact (proj1 (HB' t Ht) x Hx).
Qed.
