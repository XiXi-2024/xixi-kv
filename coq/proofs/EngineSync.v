(* EngineSync.v — what has been flushed: the durable length of every file (C13). *)
From Coq Require Import ZArith Lia ZifyN ZifyNat ZifyBool.
From KV Require Import Bytes GenConsts Chunk Record Engine Script EngineFiles EngineOps EngineInv EngineBatch
  EngineRefine EngineRecover EngineOpen.
Open Scope N_scope.

(* a file is flushed when its durable length is its size *)
Definition flushed (f : lfile) : Prop := lf_durable f = lf_size f.
Definition older_flushed (d : db) : Prop := Forall (fun x => flushed (snd x)) (d_older d).

(* bytes of plain (Put / Delete) records of the active file that start at or beyond the durable
   length: what a power failure may take away from acknowledged Puts and Deletes *)
Fixpoint plain_beyond (rs : list (record * pos)) (dur : N) : N :=
  match rs with
  | [] => 0
  | (r, p) :: rest =>
    (if (r_batch r =? 0) && (dur <=? pstart p) then p_size p else 0) + plain_beyond rest dur
  end.
Definition unflushed_plain (d : db) : N := plain_beyond (lf_recs (d_active d)) (lf_durable (d_active d)).

Lemma plain_beyond_app a b dur : plain_beyond (a ++ b) dur = plain_beyond a dur + plain_beyond b dur.
Proof. induction a as [|[r p] a IH]; cbn [app plain_beyond]; [lia|]. rewrite IH. lia. Qed.
Lemma plain_beyond_flushed rs sz dur :
  (forall r p, In (r, p) rs -> pstart p < sz) -> sz <= dur -> plain_beyond rs dur = 0.
Proof.
  intros Hwf Hle. induction rs as [|[r p] rs IH]; cbn [plain_beyond]; [reflexivity|].
  pose proof (Hwf r p (or_introl eq_refl)) as H1. rewrite IH by (intros r0 p0 Hin; apply (Hwf r0 p0); right; exact Hin).
  destruct (r_batch r =? 0); cbn [andb]; [|reflexivity]. destruct (dur <=? pstart p) eqn:E; lia.
Qed.
Lemma plain_beyond_batch rs dur : Forall (fun rp => r_batch (fst rp) <> 0) rs -> plain_beyond rs dur = 0.
Proof.
  induction 1 as [|[r p] rs Hr _ IH]; cbn [plain_beyond]; [reflexivity|]. rewrite IH. cbn [fst] in Hr.
  destruct (r_batch r =? 0) eqn:E; [lia|reflexivity].
Qed.
Lemma tagged_batch id rs (ps : list pos) : id <> 0 -> Forall (fun rp => r_batch (fst rp) <> 0) (combine (map (tag id) rs) ps).
Proof.
  intros Hid. apply Forall_forall. intros [r p] Hin. apply in_combine_l, in_map_iff in Hin. destruct Hin as (r0 & <- & _). exact Hid.
Qed.

Definition SyncInv (d : db) : Prop :=
  lf_durable (d_active d) <= lf_size (d_active d) /\
  unflushed_plain d <= d_bytes_write d /\
  older_flushed d.

Lemma SyncInv_index_only d d' : index_only d d' -> SyncInv d -> SyncInv d'.
Proof. intros (ix & tot & rc & ->) H. exact H. Qed.

Lemma flushed_remapped io f f' : remapped io f f' -> flushed f -> flushed f'.
Proof. intros (_ & Hs & _ & Hd & _). unfold flushed. congruence. Qed.
Lemma SyncInv_touched d d' : touched d d' -> SyncInv d -> SyncInv d'.
Proof.
  intros (a & o & (Hr & Hs & _ & Hd & _) & Ho & ->) (H1 & H2 & H3). unfold SyncInv, unflushed_plain, older_flushed in *.
  cbn [d_active d_older d_bytes_write]. rewrite Hr, Hs, Hd. split; [exact H1|]. split; [exact H2|].
  refine (files_touched_Forall _ _ _ _ _ Ho H3). intros id f f' Hf. exact (flushed_remapped _ _ _ Hf).
Qed.

Lemma SyncInv_flushed d : wf_lfile (d_active d) -> flushed (d_active d) -> older_flushed d -> SyncInv d.
Proof.
  intros Hwf Hfl Ho. unfold flushed in Hfl. split; [lia|]. split; [|exact Ho]. unfold unflushed_plain.
  rewrite (plain_beyond_flushed _ (lf_size (d_active d))); [lia| |lia]. intros r p Hin. exact (proj1 (Hwf r p Hin)).
Qed.

Lemma opened_flushed io f : flushed f -> lf_phys f = lf_size f -> flushed (opened io f).
Proof. intros Hf Hp. destruct (opened_fields io f) as (_ & Hs & _ & Hd). unfold flushed in *. congruence. Qed.

Lemma db_rotate_sync d d' evs : older_flushed d -> db_rotate d = (d', evs) ->
  SyncInv d' /\ flushed (d_active d').
Proof.
  intros Hof Hrot. rewrite (db_rotate_inv _ _ _ Hrot). destruct (opened_fields (io_of d) lf_empty) as (Hr & _).
  pose proof (opened_flushed (io_of d) lf_empty eq_refl eq_refl) as Hn. split; [|exact Hn].
  apply SyncInv_flushed; [intros r p Hin; cbn [rotated d_active] in Hin; rewrite Hr in Hin; destruct Hin|exact Hn|].
  apply (older_set_Forall (fun x => flushed (snd x))); [exact Hof|reflexivity].
Qed.
Lemma maybe_rotate_sync (c : bool) d d1 ev : (if c then db_rotate d else (d, [])) = (d1, ev) ->
  InvF d -> SyncInv d -> InvF d1 /\ SyncInv d1 /\ d_cfg d1 = d_cfg d.
Proof.
  intros Hrot HF HS. refine (maybe_rotate_ind (fun d1 => InvF d1 /\ SyncInv d1 /\ d_cfg d1 = d_cfg d) c d d1 ev Hrot (conj HF (conj HS eq_refl)) _).
  intros d' e Hr. split; [exact (proj1 (db_rotate_spec _ _ _ HF Hr))|]. split; [exact (proj1 (db_rotate_sync _ _ _ (proj2 (proj2 HS)) Hr))|].
  rewrite (db_rotate_inv _ _ _ Hr). reflexivity.
Qed.

(* d' has the file a - the active file of d with the records out behind it - synced or not as its active file;
   without the Sync the write counter has to cover the plain records among out *)
Lemma SyncInv_append d d' a out (s : bool) :
  SyncInv d -> wf_lfile a -> lf_recs a = lf_recs (d_active d) ++ out -> lf_durable a = lf_durable (d_active d) ->
  lf_size (d_active d) <= lf_size a ->
  d_active d' = (if s then synced a else a) -> d_older d' = d_older d ->
  (s = false -> d_bytes_write d + plain_beyond out (lf_durable a) <= d_bytes_write d') ->
  SyncInv d' /\ (s = true -> flushed (d_active d')).
Proof.
  intros (Hle & Hti & Hof) Hwf Hrecs Hdur Hsz Ha Ho Hbw. destruct s.
  - assert (Hfl : flushed (d_active d')) by (rewrite Ha; reflexivity). split; [|intros _; exact Hfl].
    apply SyncInv_flushed; [rewrite Ha; exact Hwf|exact Hfl|unfold older_flushed; rewrite Ho; exact Hof].
  - split; [|discriminate]. specialize (Hbw eq_refl). unfold SyncInv, unflushed_plain, older_flushed in *.
    rewrite Ha, Ho, Hrecs, plain_beyond_app. rewrite Hdur in *. split; [lia|]. split; [lia|exact Hof].
Qed.

Lemma db_append_sync d r d' p evs :
  InvF d -> SyncInv d -> r_batch r = 0 -> db_append d r = (d', p, evs) ->
  SyncInv d' /\
  (c_sync (d_cfg d) = sync_Always -> flushed (d_active d')) /\
  (c_sync (d_cfg d) = sync_Threshold -> 0 < c_bps (d_cfg d) -> d_bytes_write d' < c_bps (d_cfg d)).
Proof.
  intros HF HS Hplain Happ. destruct (db_append_shape _ _ _ _ _ Happ) as (d1 & ev1 & a & ev2 & Hrot & Hla & ->). cbv zeta.
  destruct (maybe_rotate_sync _ _ _ _ Hrot HF HS) as ([Hact1 _] & HS1 & Hcfg1). rewrite <- Hcfg1.
  destruct (lf_append_spec _ _ _ _ _ _ _ _ Hact1 Hla) as (Hwfa & _ & _ & _ & Hsz).
  destruct (lf_append_fields _ _ _ _ _ _ _ _ Hla) as (Hrecs & _ & Hdura).
  set (bw := d_bytes_write d1 + p_size p) in *. set (s := sync_due (d_cfg d1) bw).
  destruct (SyncInv_append d1 (mkDb (d_cfg d1) (d_active_id d1) (if s then synced a else a) (d_older d1) (d_index d1)
              (if s then 0 else bw) (d_total d1 + p_size p) (d_reclaim d1)) a [(r, p)] s HS1 Hwfa Hrecs Hdura ltac:(lia) eq_refl eq_refl)
    as [HS' Hfl].
  { intros ->. cbn [d_bytes_write plain_beyond]. rewrite Hplain. destruct ((0 =? 0) && (lf_durable a <=? pstart p)); unfold bw; lia. }
  split; [exact HS'|]. unfold s, sync_due in *. cbn [d_active d_bytes_write d_cfg] in *.
  split.
  - intros HA. apply Hfl. rewrite HA. reflexivity.
  - intros HT Hb. rewrite HT. change (sync_Threshold =? sync_Always) with false. change (sync_Threshold =? sync_Threshold) with true.
    cbn [orb andb]. destruct (c_bps (d_cfg d1) <=? bw) eqn:E; [exact Hb|apply N.leb_gt in E; exact E].
Qed.

(* C13, Always: every Put has been flushed before it returns; Threshold: fewer than
   BytesPerSync bytes of acknowledged Puts/Deletes are unflushed *)
Theorem db_put_sync d k v d' evs :
  InvF d -> SyncInv d -> db_put d k v = (d', None, evs) ->
  SyncInv d' /\
  (c_sync (d_cfg d) = sync_Always -> flushed (d_active d') /\ older_flushed d') /\
  (c_sync (d_cfg d) = sync_Threshold -> 0 < c_bps (d_cfg d) -> unflushed_plain d' < c_bps (d_cfg d)).
Proof.
  intros HF HS Hput. destruct (db_put_cases _ _ _ _ _ _ Hput) as [(_ & _ & [=] & _)|(_ & _ & d1 & p & Happ & ->)].
  destruct (db_append_sync d (mkRec rt_Normal k v 0) _ _ _ HF HS eq_refl Happ) as (HS1 & HA & HT).
  destruct (idx_upd_index_only d1 (mkRec rt_Normal k v 0) p) as (ix & tot & rc & ->).
  split; [exact HS1|]. split; [intros H; exact (conj (HA H) (proj2 (proj2 HS1)))|].
  intros H Hb. exact (N.le_lt_trans _ _ _ (proj1 (proj2 HS1)) (HT H Hb)).
Qed.

Theorem db_delete_sync d k d' evs :
  InvF d -> SyncInv d -> db_delete d k = (d', None, evs) ->
  SyncInv d' /\
  (idx_get (d_index d) k <> None -> len k <> 0 -> c_sync (d_cfg d) = sync_Always -> flushed (d_active d') /\ older_flushed d') /\
  (c_sync (d_cfg d) = sync_Threshold -> 0 < c_bps (d_cfg d) -> d_bytes_write d < c_bps (d_cfg d) -> unflushed_plain d' < c_bps (d_cfg d)).
Proof.
  intros HF HS Hdel.
  destruct (db_delete_cases _ _ _ _ _ Hdel) as [(_ & _ & [=] & _)|[(_ & Hg & -> & _)|(_ & _ & d1 & p & Happ & -> & _)]].
  - split; [exact HS|]. split; [intros H; contradiction|]. intros _ _ Hb. exact (N.le_lt_trans _ _ _ (proj1 (proj2 HS)) Hb).
  - destruct (db_append_sync d (mkRec rt_Deleted k [] 0) _ _ _ HF HS eq_refl Happ) as (HS1 & HA & HT).
    destruct (idx_upd_index_only d1 (mkRec rt_Deleted k [] 0) p) as (ix & tot & rc & ->).
    split; [exact HS1|]. split; [intros _ _ H; exact (conj (HA H) (proj2 (proj2 HS1)))|].
    intros H Hb _. exact (N.le_lt_trans _ _ _ (proj1 (proj2 HS1)) (HT H Hb)).
Qed.

Lemma db_put_sync_any d k v d' e evs : InvF d -> SyncInv d -> db_put d k v = (d', e, evs) -> SyncInv d'.
Proof.
  intros HF HS H. destruct (db_put_cases _ _ _ _ _ _ H) as [(_ & -> & _)|(_ & -> & _)]; [exact HS|exact (proj1 (db_put_sync _ _ _ _ _ HF HS H))].
Qed.
Lemma db_delete_sync_any d k d' e evs : InvF d -> SyncInv d -> db_delete d k = (d', e, evs) -> SyncInv d'.
Proof.
  intros HF HS H. destruct (db_delete_cases _ _ _ _ _ H) as [(_ & -> & _)|[(_ & _ & -> & _)|(_ & _ & d1 & p & Happ & -> & _)]]; try exact HS.
  exact (SyncInv_index_only _ _ (idx_upd_index_only _ _ _) (proj1 (db_append_sync d (mkRec rt_Deleted k [] 0) _ _ _ HF HS eq_refl Happ))).
Qed.

(* Sync() flushes the active file; Close flushes every file *)
Theorem db_sync_flushes d d' evs : db_sync d = (d', evs) -> flushed (d_active d').
Proof. rewrite db_sync_eq. intros [= <- _]. reflexivity. Qed.
Lemma db_sync_sync d d' evs : InvF d -> SyncInv d -> db_sync d = (d', evs) -> SyncInv d'.
Proof. rewrite db_sync_eq. intros [Hact _] (_ & _ & Hof) [= <- _]. apply SyncInv_flushed; [exact Hact|reflexivity|exact Hof]. Qed.
Theorem db_close_flushes d k k' evs : db_close d k = (k', evs) -> Forall (fun x => flushed (snd x)) (k_data k').
Proof.
  intros H. pose proof (db_close_fst d k) as Hk. rewrite H in Hk. cbn [fst] in Hk. subst k'. cbn [k_data].
  apply Forall_forall. intros [i g] Hg. apply in_map_files in Hg. destruct Hg as (f & _ & ->). reflexivity.
Qed.

(* ---- batches ---- *)
Lemma batch_flush_sync d b d' b' evs :
  InvF d -> SyncInv d -> b_id b <> 0 -> batch_flush d b = (d', b', evs) ->
  InvF d' /\ SyncInv d'.
Proof.
  intros HF HS Hid Hfl. destruct (batch_flush_shape _ _ _ _ _ Hfl) as (_ & d1 & ev1 & a & ps & ev2 & Hrot & Hla & ->).
  destruct (maybe_rotate_sync _ _ _ _ Hrot HF HS) as (HF1 & HS1 & _).
  destruct (lf_append_all_spec _ _ _ _ _ _ _ _ (proj1 HF1) Hla) as (out & _ & _ & _ & Hwfa & _ & _ & Hgrow).
  destruct (lf_append_all_fields _ _ _ _ _ _ _ _ Hla) as (Hrecs & _ & _ & Hdura).
  set (d2 := set_active d1 (d_active_id d1) (if b_sync b then synced a else a)).
  pose proof (apply_staged_index_only (combine (map (tag (b_id b)) (b_staged b)) ps) d2) as Hio.
  assert (HF2 : InvF d2) by (apply InvF_set_active; [exact HF1|destruct (b_sync b); exact Hwfa]).
  destruct (SyncInv_append d1 d2 a _ (b_sync b) HS1 Hwfa Hrecs Hdura Hgrow eq_refl eq_refl) as [HS2 _].
  { intros _. rewrite (plain_beyond_batch _ _ (tagged_batch _ _ _ Hid)). cbn [d2 set_active d_bytes_write]. lia. }
  split; [exact (InvF_index_only _ _ Hio HF2)|exact (SyncInv_index_only _ _ Hio HS2)].
Qed.

(* Commit of a Sync batch: flushed including its sealing record *)
Lemma batch_commit_sync_any d b d' b' e evs :
  InvF d -> SyncInv d -> b_id b <> 0 -> batch_commit d b = (d', b', e, evs) ->
  SyncInv d' /\ (b_sync b = true -> b_committed b = false -> b_staged b <> [] -> flushed (d_active d') /\ older_flushed d').
Proof.
  intros HF HS Hid Hc.
  destruct (batch_commit_cases _ _ _ _ _ _ Hc) as [(Hcm & -> & _)|(_ & _ & _ & [(Hnil & -> & _)|(_ & d1 & b1 & ev1 & a & p & ev2 & Hfl & Hla & ->)])].
  - split; [exact HS|]. intros _ H. congruence.
  - split; [exact HS|]. intros _ _ H. contradiction.
  - destruct (batch_flush_sync d (mkBatch (b_staged b) (b_cached b) true (b_sync b) (b_id b)) _ _ _ HF HS Hid Hfl) as (HF1 & HS1).
    destruct (lf_append_spec _ _ _ _ _ _ _ _ (proj1 HF1) Hla) as (Hwfa & _ & _ & _ & Hsz).
    destruct (lf_append_fields _ _ _ _ _ _ _ _ Hla) as (Hrecs & _ & Hdura).
    destruct (SyncInv_append d1 (set_active d1 (d_active_id d1) (if b_sync b then synced a else a)) a _ (b_sync b)
                HS1 Hwfa Hrecs Hdura ltac:(lia) eq_refl eq_refl) as [HS2 Hfl2].
    { intros _. rewrite (plain_beyond_batch [(seal (b_id b), p)]); [cbn; lia|]. constructor; [exact Hid|constructor]. }
    split; [exact HS2|]. intros Hs _ _. exact (conj (Hfl2 Hs) (proj2 (proj2 HS2))).
Qed.
Theorem batch_commit_sync d b d' b' e evs :
  Inv d -> SyncInv d -> b_id b <> 0 -> b_committed b = false ->
  batch_commit d b = (d', b', e, evs) ->
  SyncInv d' /\ (b_sync b = true -> b_staged b <> [] -> flushed (d_active d') /\ older_flushed d').
Proof.
  intros HI HS Hid Hnc Hc. destruct (batch_commit_sync_any _ _ _ _ _ _ (proj1 HI) HS Hid Hc) as [A B].
  split; [exact A|]. intros Hs Hne. exact (B Hs Hnc Hne).
Qed.

Lemma batch_flush_rotate_sync d b d' b' evs :
  InvF d -> SyncInv d -> b_id b <> 0 -> batch_flush_rotate d b = (d', b', evs) -> InvF d' /\ SyncInv d'.
Proof.
  intros HF HS Hid H. destruct (batch_flush_rotate_shape _ _ _ _ _ H) as (d1 & ev1 & Hfl & ->).
  destruct (batch_flush_sync _ _ _ _ _ HF HS Hid Hfl) as (HF1 & HS1). destruct (db_rotate d1) as [d2 ev2] eqn:Hrot.
  rewrite <- (db_rotate_inv _ _ _ Hrot). split; [exact (proj1 (db_rotate_spec _ _ _ HF1 Hrot))|exact (proj1 (db_rotate_sync _ _ _ (proj2 (proj2 HS1)) Hrot))].
Qed.

Lemma run_bops_sync bops d b d' b' rs evs :
  InvF d -> SyncInv d -> b_id b <> 0 -> run_bops d b bops = (d', b', rs, evs) -> InvF d' /\ SyncInv d' /\ b_id b' <> 0.
Proof.
  intros HF HS Hid Hr.
  destruct (run_bops_db (fun id d => InvF d /\ SyncInv d /\ id <> 0)) with (4 := Hr) as [(A & B & C) E]; [| |auto|rewrite E; auto].
  - intros d0 b0 d1 b1 ev (A & B & C) Hf. destruct (batch_flush_rotate_sync _ _ _ _ _ A B C Hf); auto.
  - intros id d0 d1 Ht (A & B & C). exact (conj (InvF_touched _ _ Ht A) (conj (SyncInv_touched _ _ Ht B) C)).
Qed.

Lemma db_open_flushed c k k1 mid ev1 d k' evs :
  load_merge_files k = (k1, mid, ev1) -> Forall (fun x => flushed (snd x) /\ lf_phys (snd x) = lf_size (snd x)) (k_data k1) ->
  db_open c k = (OpenOk d k', evs) ->
  flushed (d_active d) /\ older_flushed d.
Proof.
  intros Hl Hfl H.
  destruct (db_open_files flushed c k k1 mid ev1 d k' evs Hl H (fun f _ => eq_refl) (opened_flushed _ lf_empty eq_refl eq_refl)) as [(A & B & _) _]; [|auto].
  eapply Forall_impl; [|exact Hfl]. intros x [Hf Hp]. exact (opened_flushed _ _ Hf Hp).
Qed.

Lemma restart_sync d k m c k1 ev1 d' k2 ev2 :
  LogInv d m -> k_merge k = None -> db_close d k = (k1, ev1) -> db_open c k1 = (OpenOk d' k2, ev2) -> SyncInv d'.
Proof.
  intros HL Hnm Hc Ho.
  destruct (restart_spec d k m c k1 ev1 HL Hnm Hc) as (d0 & k0 & e0 & Ho0 & HL' & _). rewrite Ho in Ho0. injection Ho0 as <- _ _.
  pose proof (db_close_fst d k) as Hk. rewrite Hc in Hk. cbn [fst] in Hk.
  destruct (db_open_flushed c k1 k1 0 [] d' k2 ev2) as (Ha & Hof); [unfold load_merge_files; rewrite Hk; cbn [k_merge]; rewrite Hnm; reflexivity| |exact Ho|].
  { rewrite Hk. apply Forall_forall. intros [i g] Hg. apply in_map_files in Hg. destruct Hg as (f & _ & ->). split; reflexivity. }
  exact (SyncInv_flushed d' (proj1 (LogInv_InvF _ _ HL')) Ha Hof).
Qed.

(* ---- the sync invariant holds at every step of every merge-free script ---- *)
Theorem step_sync d k m o d' k' r evs :
  LogInv d m -> SyncInv d -> no_restart o \/ k_merge k = None -> op_ok o -> step (d, k) o = ((d', k'), r, evs) -> SyncInv d'.
Proof.
  intros HL HS Hnr Hok H. pose proof (LogInv_InvF _ _ HL) as HF. apply step_cases in H.
  destruct o as [key v|key|key| | | | |sync id bops|order|c].
  - destruct H as (_ & e & Hp & _). exact (db_put_sync_any _ _ _ _ _ _ HF HS Hp).
  - destruct H as (_ & v & Hg & _). exact (SyncInv_touched _ _ (db_get_touched _ _ _ _ _ Hg) HS).
  - destruct H as (_ & e & Hp & _). exact (db_delete_sync_any _ _ _ _ _ HF HS Hp).
  - destruct H as (_ & -> & _). exact HS.
  - destruct H as (_ & x & Hf & _). exact (SyncInv_touched _ _ (db_fold_aux_touched _ _ _ _ _ Hf) HS).
  - destruct H as (_ & -> & _). exact HS.
  - destruct H as (_ & Hs & _). exact (db_sync_sync _ _ _ HF HS Hs).
  - destruct H as (_ & d1 & b1 & rs & ev1 & b2 & e & ev2 & Hr & Hc & _).
    destruct (run_bops_sync bops d (new_batch sync id) _ _ _ _ HF HS Hok Hr) as (HF1 & HS1 & Hid1).
    exact (proj1 (batch_commit_sync_any _ _ _ _ _ _ HF1 HS1 Hid1 Hc)).
  - destruct Hok.
  - destruct Hnr as [[]|Hnm]. destruct H as (k1 & ev1 & ev2 & Hc & Ho & _). exact (restart_sync _ _ _ _ _ _ _ _ _ HL Hnm Hc Ho).
Qed.

Theorem run_sync ops d k m s' rs evs :
  LogInv d m -> SyncInv d -> k_merge k = None -> Forall op_ok ops -> run (d, k) ops = (s', rs, evs) ->
  SyncInv (fst s').
Proof.
  intros HL HS Hnm Hok Hrun.
  refine (proj1 (run_invariant (fun s => SyncInv (fst s) /\ k_merge (snd s) = None /\ exists m, LogInv (fst s) m) op_ok _
                   ops (d, k) s' rs evs (conj HS (conj Hnm (ex_intro _ m HL))) Hok Hrun)).
  intros [d0 k0] o [d1 k1] r e (A & B & m0 & C) Ho Hs. destruct (step_log _ _ _ _ _ _ _ _ C B Ho Hs) as (C1 & B1 & _).
  exact (conj (step_sync _ _ _ _ _ _ _ _ C A (or_intror B) Ho Hs) (conj B1 (ex_intro _ _ C1))).
Qed.

Lemma open_empty_sync c d k evs : db_open c empty_disk = (OpenOk d k, evs) -> SyncInv d.
Proof.
  intros Ho. destruct (db_open_flushed c empty_disk empty_disk 0 [] d k evs eq_refl (Forall_nil _) Ho) as (Ha & Hof).
  destruct (open_empty_log c _ _ _ Ho) as [HL _].
  exact (SyncInv_flushed d (proj1 (LogInv_InvF _ _ HL)) Ha Hof).
Qed.
