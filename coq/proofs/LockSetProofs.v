(* LockSetProofs.v — a table that follows the lockset discipline excludes data races (C09):
   threads whose accesses are entries of the table, performed with the listed locks held, never reach
   a state in which two of them are about to perform conflicting accesses - for any number of threads,
   any programs, any schedule. *)
From Coq Require Import List Arith Bool Lia.
From KV Require Import LockSet ListLemmas.
Import ListNotations.

Lemma holds_any_iff h l : holds_any h l = true <-> exists x, In (l, x) h.
Proof.
  unfold holds_any. rewrite existsb_exists. split.
  - intros ([l' x] & Hin & He). apply Nat.eqb_eq in He. cbn [fst] in He. subst l'. exists x. exact Hin.
  - intros [x Hin]. exists (l, x). split; [exact Hin|apply Nat.eqb_refl].
Qed.
Lemma holds_excl_iff h l : holds_excl h l = true <-> In (l, true) h.
Proof.
  unfold holds_excl. rewrite existsb_exists. split.
  - intros ([l' x] & Hin & He). apply andb_true_iff in He. destruct He as [He Hx]. apply Nat.eqb_eq in He. cbn [fst snd] in *. subst. exact Hin.
  - intros Hin. exists (l, true). split; [exact Hin|]. cbn [fst snd]. rewrite Nat.eqb_refl. reflexivity.
Qed.
Lemma holds_any_in h l x : In (l, x) h -> holds_any h l = true.
Proof. intros H. apply holds_any_iff. exists x. exact H. Qed.
Lemma holds_excl_in h l : In (l, true) h -> holds_excl h l = true.
Proof. apply holds_excl_iff. Qed.
Lemma holds_excl_any h l : holds_excl h l = true -> holds_any h l = true.
Proof. rewrite holds_excl_iff, holds_any_iff. intros H. exists true. exact H. Qed.
Lemma in_drop_lock l x : forall h, In x (drop_lock l h) -> In x h.
Proof.
  induction h as [|y h IH]; cbn [drop_lock]; [tauto|]. destruct (Nat.eqb (fst y) l).
  - intros H. right. exact H.
  - intros [H|H]; [left; exact H|right; exact (IH H)].
Qed.
Lemma holds_any_drop l l' h : holds_any (drop_lock l h) l' = true -> holds_any h l' = true.
Proof. rewrite !holds_any_iff. intros [x Hx]. exists x. exact (in_drop_lock _ _ _ Hx). Qed.
Lemma holds_excl_drop l l' h : holds_excl (drop_lock l h) l' = true -> holds_excl h l' = true.
Proof. rewrite !holds_excl_iff. apply in_drop_lock. Qed.

(* sync.RWMutex: an exclusive acquisition finds no holder at all, a shared one no exclusive holder *)
Lemma can_acquire_spec s l x j tj : can_acquire s l x = true -> nth_error s j = Some tj ->
  if x then holds_any (at_held tj) l = false else holds_excl (at_held tj) l = false.
Proof.
  intros H Hj. apply nth_error_In in Hj. unfold can_acquire in H.
  destruct x; rewrite forallb_forall in H; apply negb_true_iff; exact (H tj Hj).
Qed.

Definition Mutex (s : list athr) : Prop :=
  forall i j ti tj l, i <> j -> nth_error s i = Some ti -> nth_error s j = Some tj ->
    holds_excl (at_held ti) l = true -> holds_any (at_held tj) l = false.

Lemma mutex_shrink s k t t' : Mutex s -> nth_error s k = Some t ->
  (forall l, holds_any (at_held t') l = true -> holds_any (at_held t) l = true) ->
  (forall l, holds_excl (at_held t') l = true -> holds_excl (at_held t) l = true) ->
  Mutex (set_athr s k t').
Proof.
  intros HM Hk Hany Hexcl i j ti tj l Hij Hi Hj Hx. rewrite set_athr_upd in Hi, Hj.
  destruct (nth_error_upd _ _ _ _ _ Hi) as [[-> ->]|[Hik Hi']], (nth_error_upd _ _ _ _ _ Hj) as [[-> ->]|[Hjk Hj']].
  - contradiction.
  - exact (HM k j t tj l Hij Hk Hj' (Hexcl l Hx)).
  - destruct (holds_any (at_held t') l) eqn:E; [|reflexivity]. rewrite <- (HM i k ti t l Hij Hi' Hk Hx). symmetry. exact (Hany l E).
  - exact (HM i j ti tj l Hij Hi' Hj' Hx).
Qed.
Lemma mutex_acquire s k h es l x : Mutex s -> nth_error s k = Some (mkAThr h es) -> can_acquire s l x = true ->
  forall r, Mutex (set_athr s k (mkAThr ((l, x) :: h) r)).
Proof.
  intros HM Hk Hc r i j ti tj l' Hij Hi Hj Hx. rewrite set_athr_upd in Hi, Hj.
  destruct (nth_error_upd _ _ _ _ _ Hi) as [[-> ->]|[Hik Hi']], (nth_error_upd _ _ _ _ _ Hj) as [[-> ->]|[Hjk Hj']]; cbn [at_held] in *.
  - contradiction.
  - apply holds_excl_iff in Hx. destruct Hx as [E|Hx]; [|exact (HM k j _ tj l' Hij Hk Hj' (holds_excl_in h l' Hx))].
    injection E as -> ->. exact (can_acquire_spec s l' true j tj Hc Hj').
  - destruct (holds_any ((l, x) :: h) l') eqn:E; [exfalso|reflexivity]. apply holds_any_iff in E. destruct E as [x' [E|E]].
    + injection E as -> ->. pose proof (can_acquire_spec s l' x' i ti Hc Hi') as Hn.
      destruct x'; [rewrite (holds_excl_any _ _ Hx) in Hn|rewrite Hx in Hn]; discriminate.
    + pose proof (HM i k ti _ l' Hij Hi' Hk Hx) as Hn. cbn [at_held] in Hn. rewrite (holds_any_in h l' x' E) in Hn. discriminate.
  - exact (HM i j ti tj l' Hij Hi' Hj' Hx).
Qed.

Lemma mutex_step s k s' : Mutex s -> astep s k = Some s' -> Mutex s'.
Proof.
  intros HM Hs. unfold astep in Hs. destruct (nth_error s k) as [[h es]|] eqn:Ek; [|discriminate].
  destruct es as [|[l x|l|a] r]; [discriminate| | |].
  - destruct (can_acquire s l x) eqn:Ec; [|discriminate]. injection Hs as <-. exact (mutex_acquire s k h _ l x HM Ek Ec r).
  - injection Hs as <-. apply (mutex_shrink s k _ _ HM Ek); intros l'; [apply holds_any_drop|apply holds_excl_drop].
  - injection Hs as <-. apply (mutex_shrink s k _ _ HM Ek); auto.
Qed.

Definition Annot (tbl : list access) (s : list athr) : Prop :=
  Forall (fun t => annotated tbl (at_held t) (at_rest t)) s.

Lemma annot_step tbl s k s' : Annot tbl s -> astep s k = Some s' -> Annot tbl s'.
Proof.
  intros HA Hs. unfold astep in Hs. destruct (nth_error s k) as [[h es]|] eqn:Ek; [|discriminate].
  assert (Ht : annotated tbl h es).
  { unfold Annot in HA. rewrite Forall_forall in HA. apply (HA (mkAThr h es)). eapply nth_error_In. exact Ek. }
  destruct es as [|[l x|l|a] r]; [discriminate|destruct (can_acquire s l x); [|discriminate]| |];
    injection Hs as <-; rewrite set_athr_upd; (apply Forall_upd; [exact HA|]).
  - (* acquire *) exact Ht.
  - (* release *) exact Ht.
  - (* access *) exact (proj2 (proj2 Ht)).
Qed.

Lemma lockset_ok_pair tbl a b : lockset_ok tbl = true -> In a tbl -> In b tbl -> pair_ok a b = true.
Proof.
  unfold lockset_ok. intros H Ha Hb. rewrite forallb_forall in H. specialize (H a Ha).
  rewrite forallb_forall in H. exact (H b Hb).
Qed.

Lemma conflict_sym a b : conflict a b = conflict b a.
Proof.
  unfold conflict, same_loc, inst_overlap.
  rewrite (Nat.eqb_sym (a_loc a)), (Nat.eqb_sym (a_inst a)), (orb_comm (a_write a)), (andb_comm (a_atomic a)).
  destruct (Nat.eqb (a_inst b) (a_inst a)), (Nat.eqb (a_inst a) 3), (Nat.eqb (a_inst b) 3); reflexivity.
Qed.

Theorem discipline_excludes_race tbl s :
  lockset_ok tbl = true -> Mutex s -> Annot tbl s -> ~ race s.
Proof.
  intros Hok HM HA (i & j & ti & tj & a & b & ri & rj & Hij & Hi & Hj & Hri & Hrj & Hc).
  unfold Annot in HA. rewrite Forall_forall in HA.
  pose proof (HA ti (nth_error_In _ _ Hi)) as Ai. pose proof (HA tj (nth_error_In _ _ Hj)) as Aj.
  rewrite Hri in Ai. rewrite Hrj in Aj. cbn [annotated] in Ai, Aj.
  destruct Ai as (Ia & Ha & _). destruct Aj as (Ib & Hb & _).
  pose proof (lockset_ok_pair tbl a b Hok Ia Ib) as Hp. unfold pair_ok in Hp. rewrite Hc in Hp. cbn [negb orb] in Hp.
  unfold common_lock in Hp. apply existsb_exists in Hp. destruct Hp as ([l xa] & Hla & Hp).
  apply existsb_exists in Hp. destruct Hp as ([l' xb] & Hlb & Hp). cbn [fst snd] in Hp.
  apply andb_true_iff in Hp. destruct Hp as [El Hx]. apply Nat.eqb_eq in El. subst l'.
  apply Ha in Hla. apply Hb in Hlb. apply orb_true_iff in Hx. destruct Hx as [->| ->].
  - pose proof (HM i j ti tj l Hij Hi Hj (holds_excl_in _ _ Hla)) as Hn.
    rewrite (holds_any_in _ _ _ Hlb) in Hn. discriminate.
  - assert (Hji : j <> i) by (intro E; apply Hij; symmetry; exact E).
    pose proof (HM j i tj ti l Hji Hj Hi (holds_excl_in _ _ Hlb)) as Hn.
    rewrite (holds_any_in _ _ _ Hla) in Hn. discriminate.
Qed.

Theorem lockset_discipline_excludes_races tbl progs sched :
  lockset_ok tbl = true -> Forall (annotated tbl []) progs -> ~ race (arun (map (mkAThr []) progs) sched).
Proof.
  intros Hok Hp. set (s0 := map (mkAThr []) progs).
  assert (H0 : Mutex s0 /\ Annot tbl s0).
  { split.
    - intros i j ti tj l _ Hi _ He. apply nth_error_In, in_map_iff in Hi. destruct Hi as (p & <- & _). discriminate.
    - apply Forall_forall. intros t Ht. apply in_map_iff in Ht. destruct Ht as (p & <- & Hin).
      rewrite Forall_forall in Hp. exact (Hp p Hin). }
  destruct (orun_inv astep (fun s => Mutex s /\ Annot tbl s)
              (fun s i s' H E => conj (mutex_step s i s' (proj1 H) E) (annot_step tbl s i s' (proj2 H) E)) sched s0 H0) as [HM HA].
  exact (discipline_excludes_race tbl _ Hok HM HA).
Qed.

(* the discipline is not vacuous: it rejects a write under a shared lock, an unlocked read beside a
   locked write, an atomic operation beside a plain one; it accepts reads under no lock beside each
   other, and a read under the shared lock beside a write under the exclusive one *)
Example lockset_rejects_and_accepts :
  lockset_ok [mkAcc 0 0 true false [(0, false)]] = false /\
  lockset_ok [mkAcc 0 0 true false [(0, true)]; mkAcc 0 0 false false []] = false /\
  lockset_ok [mkAcc 0 0 true true []; mkAcc 0 0 false false []] = false /\
  lockset_ok [mkAcc 0 1 true false [(0, true)]; mkAcc 0 3 false false []] = false /\
  lockset_ok [mkAcc 0 0 false false []; mkAcc 0 0 false false [(1, false)]] = true /\
  lockset_ok [mkAcc 0 0 true false [(0, true)]; mkAcc 0 0 false false [(0, false)]] = true /\
  lockset_ok [mkAcc 0 1 true false [(0, true)]; mkAcc 0 2 false false []] = true /\
  lockset_ok [mkAcc 0 0 true true []; mkAcc 0 0 false true []] = true.
Proof. vm_compute. repeat split; reflexivity. Qed.
