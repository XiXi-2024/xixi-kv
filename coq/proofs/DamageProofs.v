(* DamageProofs.v — the readers on ARBITRARY bytes (C12): they never panic and they terminate, so the
   fuel of the model is only a bound (reader_next_of_fuel, scan_of_fuel; readToBuf is a projection of
   next: read_at_fuel_of_reader); altered chunks are rejected; what the record decoder accepts
   (decode_record_sound); the model's CRC-32 has 32-bit results (crc32_u32). *)
From Coq Require Import ZArith Lia ZifyN ZifyNat ZifyBool.
From KV Require Import Bytes GenConsts Crc Chunk Record BytesLemmas ChunkProofs.
Open Scope N_scope.

Section WithCrc.
Variable crc : bytes -> N.

Notation decode_chunk := (decode_chunk crc).
Notation read_chunk := (read_chunk crc).
Notation reader_next_fuel := (reader_next_fuel crc).
Notation reader_next := (reader_next crc).
Notation scan_fuel := (scan_fuel crc).
Notation scan := (scan crc).
Notation read_at_fuel := (read_at_fuel crc).
Notation read_at := (read_at crc).

Lemma decode_chunk_total c : decode_chunk c <> Panic /\ decode_chunk c <> OutOfFuel.
Proof.
  rewrite decode_chunk_eq. destruct (len c <? 7); [split; discriminate|]. cbv zeta.
  destruct (len c <? _); [split; discriminate|]. destruct (_ =? _); split; discriminate.
Qed.

(* DataReader.next's loop on arbitrary bytes, whatever the fuel.  It never panics; it runs out of fuel only
   if given less than one round per remaining block (each round moves to the next block, and behind the
   last block read_chunk answers CEnd); and it succeeds only where a whole chunk header lies inside the
   file, advancing by at least one chunk header. *)
Lemma reader_next_fuel_result : forall fuel f fsize fid bid0 off0 bid off cnt acc,
  match reader_next_fuel fuel f fsize fid bid0 off0 bid off cnt acc with
  | Ok (_, _, bid', off') =>
      bid * blockSize + off + 7 <= fsize /\ bid * blockSize + off + 7 <= bid' * blockSize + off'
  | Err _ => True
  | Panic => False
  | OutOfFuel => (fuel <= N.to_nat (fsize / blockSize + 1 - bid))%nat
  end.
Proof.
  induction fuel as [|fuel IH]; intros; cbn [Chunk.reader_next_fuel]; [lia|].
  destruct (read_chunk_cases crc f fsize bid off) as [->|(c & e & H1 & H2 & ->)]; [exact I|]. unfold chunk_at.
  destruct (decode_chunk_total c) as [Np Nf].
  destruct (Chunk.decode_chunk crc c) as [[d ty]|?| |] eqn:Hd; [|exact I|congruence|congruence].
  apply decode_chunk_fits in Hd. cbv zeta. destruct (is_last ty).
  - rewrite chunkHeaderSize_val, blockSize_val in *. destruct (32768 <=? _) eqn:E; unfold byte in *; lia.
  - specialize (IH f fsize fid bid0 off0 (bid + 1) 0 (cnt + 1) (acc ++ d)).
    destruct (reader_next_fuel fuel f fsize fid bid0 off0 (bid + 1) 0 (cnt + 1) (acc ++ d)) as [[[[? ?] b'] o']|?| |];
      [|exact I|exact IH|]; rewrite blockSize_val in *; unfold byte in *; lia.
Qed.

Theorem reader_next_no_panic f fid bid off : reader_next f fid bid off <> Panic.
Proof.
  intros H. pose proof (reader_next_fuel_result (blocks_fuel (len f)) f (len f) fid bid off bid off 0 []) as R.
  fold (reader_next f fid bid off) in R. rewrite H in R. exact R.
Qed.

Theorem reader_next_terminates f fid bid off : reader_next f fid bid off <> OutOfFuel.
Proof.
  intros H. pose proof (reader_next_fuel_result (blocks_fuel (len f)) f (len f) fid bid off bid off 0 []) as R.
  fold (reader_next f fid bid off) in R. rewrite H in R. unfold blocks_fuel in R. revert R. generalize (len f / blockSize). lia.
Qed.

Lemma reader_next_fuel_mono : forall n m f fsize fid bid0 off0 bid off cnt acc,
  (n <= m)%nat -> reader_next_fuel n f fsize fid bid0 off0 bid off cnt acc <> OutOfFuel ->
  reader_next_fuel m f fsize fid bid0 off0 bid off cnt acc = reader_next_fuel n f fsize fid bid0 off0 bid off cnt acc.
Proof.
  induction n as [|n IH]; intros m f fsize fid bid0 off0 bid off cnt acc Hnm Hr; [contradiction Hr; reflexivity|].
  destruct m as [|m]; [lia|]. cbn [Chunk.reader_next_fuel] in *.
  destruct (read_chunk f fsize bid off) as [|e| |d ty]; try reflexivity.
  destruct (is_last ty); [reflexivity|]. apply IH; [lia|exact Hr].
Qed.

Lemma reader_next_of_fuel n f fid bid off x :
  reader_next_fuel n f (len f) fid bid off bid off 0 [] = Ok x -> reader_next f fid bid off = Ok x.
Proof.
  intros H. unfold Chunk.reader_next. destruct (Nat.le_ge_cases n (blocks_fuel (len f))) as [Hle|Hle].
  - rewrite (reader_next_fuel_mono n), H by (rewrite ?H; easy). reflexivity.
  - rewrite <- H. symmetry. apply reader_next_fuel_mono; [exact Hle|apply reader_next_terminates].
Qed.

(* readToBuf is the loop of DataReader.next without the bookkeeping of positions *)
Lemma read_at_fuel_of_reader : forall fuel f fsize fid bid0 off0 bid off cnt acc,
  match reader_next_fuel fuel f fsize fid bid0 off0 bid off cnt acc with
  | Ok (d, _, _, _) => read_at_fuel fuel f fsize bid off acc = Ok d
  | Err _ => exists e, read_at_fuel fuel f fsize bid off acc = Err e
  | Panic => read_at_fuel fuel f fsize bid off acc = Panic
  | OutOfFuel => read_at_fuel fuel f fsize bid off acc = OutOfFuel
  end.
Proof.
  induction fuel as [|fuel IH]; intros; cbn [Chunk.reader_next_fuel Chunk.read_at_fuel]; [reflexivity|].
  destruct (read_chunk f fsize bid off) as [|e| |d ty]; eauto.
  destruct (is_last ty); [|apply IH]. cbv zeta. destruct (_ <=? _); reflexivity.
Qed.

Lemma read_at_fuel_kind fuel f fsize bid off acc :
  (read_at_fuel fuel f fsize bid off acc = Panic -> reader_next_fuel fuel f fsize 0 0 0 bid off 0 acc = Panic) /\
  (read_at_fuel fuel f fsize bid off acc = OutOfFuel -> reader_next_fuel fuel f fsize 0 0 0 bid off 0 acc = OutOfFuel).
Proof.
  pose proof (read_at_fuel_of_reader fuel f fsize 0 0 0 bid off 0 acc) as P.
  destruct (reader_next_fuel fuel f fsize 0 0 0 bid off 0 acc) as [[[[d p] b] o]|e| |]; [|destruct P as [e' P]| |];
    rewrite P; split; congruence.
Qed.

Theorem read_at_no_panic f bid off : read_at f bid off <> Panic.
Proof.
  unfold Chunk.read_at. destruct (_ <? _); [discriminate|]. intros H. apply read_at_fuel_kind in H.
  pose proof (reader_next_fuel_result (blocks_fuel (df_size f)) (df_bytes f) (df_size f) 0 0 0 bid off 0 []) as R.
  rewrite H in R. exact R.
Qed.

Theorem read_at_terminates f bid off : read_at f bid off <> OutOfFuel.
Proof.
  unfold Chunk.read_at. destruct (_ <? _); [discriminate|]. intros H. apply read_at_fuel_kind in H.
  pose proof (reader_next_fuel_result (blocks_fuel (df_size f)) (df_bytes f) (df_size f) 0 0 0 bid off 0 []) as R.
  rewrite H in R. unfold blocks_fuel in R. revert R. generalize (df_size f / blockSize). lia.
Qed.

Lemma scan_fuel_S fuel f fid bid off :
  scan_fuel (S fuel) f fid bid off =
  match reader_next f fid bid off with
  | Ok (d, p, bid', off') => let '(rs, e) := scan_fuel fuel f fid bid' off' in ((d, p) :: rs, e)
  | Err EOF => ([], SEof)
  | Err UnexpectedEOF => ([], STorn)
  | Err e => ([], SErr e)
  | Panic => ([], SPanic)
  | OutOfFuel => ([], SFuel)
  end.
Proof. reflexivity. Qed.

(* the scan loop of Open / Merge on arbitrary bytes: it never panics, and every record it delivers takes
   at least one chunk header of the file, so it runs out of fuel only if given fewer rounds than that *)
Lemma scan_fuel_result f fid : forall fuel bid off,
  match snd (scan_fuel fuel f fid bid off) with
  | SPanic => False
  | SFuel => fuel = O \/ bid * blockSize + off + 7 * N.of_nat fuel <= len f
  | _ => True
  end.
Proof.
  induction fuel as [|fuel IH]; intros bid off; [left; reflexivity|]. rewrite scan_fuel_S.
  pose proof (reader_next_fuel_result (blocks_fuel (len f)) f (len f) fid bid off bid off 0 []) as R.
  fold (reader_next f fid bid off) in R.
  destruct (reader_next f fid bid off) as [[[[d p] b'] o']|e| |]; [|destruct e; exact I|contradiction|unfold blocks_fuel in R; revert R; generalize (len f / blockSize); lia].
  specialize (IH b' o'). destruct (scan_fuel fuel f fid b' o') as [rs e]. cbn [snd] in *.
  destruct e; try exact IH. right. destruct IH as [->|IH]; lia.
Qed.

Theorem scan_no_panic f fid : snd (scan f fid) <> SPanic.
Proof.
  intros H. pose proof (scan_fuel_result f fid (S (N.to_nat (len f / chunkHeaderSize))) 0 0) as R.
  fold (scan f fid) in R. rewrite H in R. exact R.
Qed.

Theorem scan_terminates f fid : snd (scan f fid) <> SFuel.
Proof.
  intros H. pose proof (scan_fuel_result f fid (S (N.to_nat (len f / chunkHeaderSize))) 0 0) as R.
  fold (scan f fid) in R. rewrite H, chunkHeaderSize_val in R. destruct R as [R|R]; [discriminate|]. lia.
Qed.

Lemma scan_fuel_mono : forall n m f fid bid off,
  (n <= m)%nat -> snd (scan_fuel n f fid bid off) <> SFuel -> scan_fuel m f fid bid off = scan_fuel n f fid bid off.
Proof.
  induction n as [|n IH]; intros m f fid bid off Hnm Hr; [contradiction Hr; reflexivity|].
  destruct m as [|m]; [lia|]. rewrite !scan_fuel_S in *.
  destruct (reader_next f fid bid off) as [[[[d p] b'] o']|e| |]; try reflexivity.
  specialize (IH m f fid b' o'). destruct (scan_fuel n f fid b' o') as [rs e]. rewrite IH; [reflexivity|lia|exact Hr].
Qed.

Lemma scan_of_fuel n f fid r : scan_fuel n f fid 0 0 = r -> snd r <> SFuel -> scan f fid = r.
Proof.
  intros <- Hr. pose proof (scan_terminates f fid) as Ht. unfold Chunk.scan in *.
  destruct (Nat.le_ge_cases n (S (N.to_nat (len f / chunkHeaderSize)))) as [Hle|Hle].
  - apply scan_fuel_mono; assumption.
  - symmetry. apply scan_fuel_mono; assumption.
Qed.
End WithCrc.

Section Detect.
Variable crc : bytes -> N.
Notation decode_chunk := (decode_chunk crc).

Theorem damaged_checksum_rejected ty (p rest sum' : bytes) :
  len p < 65536 -> len sum' = 4 -> Forall (fun x => x < 256) sum' ->
  sum' <> le32 (crc (chunk_body ty p)) ->
  decode_chunk (sum' ++ le16 (len p) ++ [ty] ++ p ++ rest) = Err InvalidCRC.
Proof.
  intros Hp L F Hne. rewrite decode_raw; [|exact L|reflexivity|apply rd16_le16, Hp].
  destruct (_ =? _) eqn:E; [|reflexivity]. apply N.eqb_eq in E.
  exfalso. apply Hne. rewrite <- (le32_rd32 sum' L F), E. unfold chunk_body. rewrite <- app_assoc. reflexivity.
Qed.

Hypothesis crc_u32 : forall b, crc b < 4294967296.

(* the error-detection property of the checksum that the next theorem rests on (true of CRC-32:
   every error burst of at most 32 bits is detected); not proved here *)
Definition detects_one_byte : Prop :=
  forall (a b : bytes) x y, x <> y -> crc (a ++ x :: b) <> crc (a ++ y :: b).

Theorem damaged_body_rejected ty (p rest a b : bytes) x y :
  detects_one_byte -> len p < 65536 -> ty :: p = a ++ x :: b -> x <> y ->
  exists ty' p', ty' :: p' = a ++ y :: b /\
    decode_chunk (le32 (crc (chunk_body ty p)) ++ le16 (len p) ++ [ty'] ++ p' ++ rest) = Err InvalidCRC.
Proof.
  intros Hdet Hp Hsplit Hxy.
  assert (Hex : exists ty' p', ty' :: p' = a ++ y :: b /\ len p' = len p).
  { destruct a as [|a0 a]; cbn [app] in *.
    - injection Hsplit as -> ->. exists y, b. auto.
    - injection Hsplit as -> ->. exists a0, (a ++ y :: b). split; [reflexivity|].
      unfold byte in *. rewrite !len_app, !len_cons. reflexivity. }
  destruct Hex as (ty' & p' & Heq & Hlen). exists ty', p'. split; [exact Heq|].
  rewrite decode_raw; [|reflexivity|reflexivity|rewrite rd16_le16 by exact Hp; symmetry; exact Hlen].
  rewrite rd32_le32 by apply crc_u32.
  match goal with |- (if ?bb then _ else _) = _ => destruct bb eqn:E end; [|reflexivity]. exfalso. apply N.eqb_eq in E.
  unfold chunk_body in E. cbn [app] in E. change (ty :: p) with ([ty] ++ p) in Hsplit.
  assert (E' : crc (le16 (len p) ++ a ++ x :: b) = crc (le16 (len p) ++ a ++ y :: b)).
  { rewrite <- Hsplit, <- Heq. exact E. }
  rewrite !app_assoc in E'. exact (Hdet _ _ _ _ Hxy E').
Qed.

End Detect.

(* the record decoder (checkLogRecord + DecodeLogRecord): whatever it accepts is a header followed
   by exactly the key and the value it returns - lengths that do not add up are rejected *)
Theorem decode_record_sound d r :
  decode_record d = Some r -> exists hdr, d = hdr ++ r_key r ++ r_value r /\ hd 0 hdr = r_type r /\ 0 < len hdr.
Proof.
  unfold decode_record. destruct d as [|ty d1]; [discriminate|].
  destruct (varint_nonneg d1) as [[ks n1]|]; [|discriminate].
  destruct (varint_nonneg (drop n1 d1)) as [[vs n2]|]; [|discriminate].
  destruct (uvarint (drop n2 (drop n1 d1))) as [[b n3]|]; [|discriminate].
  set (d4 := drop n3 (drop n2 (drop n1 d1))).
  destruct ((ks <=? len d4) && (vs =? len d4 - ks)); [|discriminate]. intros [= <-]. cbn [r_key r_value r_type].
  exists (ty :: take (n3 + n2 + n1) d1). split; [|split; [reflexivity|rewrite len_cons; lia]].
  cbn [app]. f_equal. rewrite take_drop. unfold d4. rewrite !drop_drop. symmetry. apply take_drop.
Qed.

(* the model's CRC-32 has 32-bit results, as the theorems about an arbitrary checksum assume *)
Lemma u32_log2 a : a < 4294967296 <-> N.log2 a < 32.
Proof. destruct a as [|p]; [cbn; lia|]. change 4294967296 with (2 ^ 32). apply N.log2_lt_pow2. lia. Qed.
Lemma lxor_u32 a b : a < 4294967296 -> b < 4294967296 -> N.lxor a b < 4294967296.
Proof. rewrite !u32_log2. intros Ha Hb. eapply N.le_lt_trans; [apply N.log2_lxor|]. lia. Qed.

Lemma crc_table_u32 k : nth k crc_table 0 < 4294967296.
Proof.
  assert (H : forallb (fun x => x <? 4294967296) crc_table = true) by (vm_compute; reflexivity).
  rewrite forallb_forall in H. destruct (nth_in_or_default k crc_table 0) as [Hin| ->]; [|reflexivity].
  apply N.ltb_lt, H, Hin.
Qed.

Theorem crc32_u32 b : crc32 b < 4294967296.
Proof.
  unfold crc32, crc32_with. apply lxor_u32; [|reflexivity].
  assert (H : 4294967295 < 4294967296) by reflexivity. revert H. generalize 4294967295 at 1 2.
  induction b as [|x b IH]; intros c Hc; cbn [fold_left]; [exact Hc|]. apply IH, lxor_u32; [apply crc_table_u32|].
  rewrite N.shiftr_div_pow2. eapply N.le_lt_trans; [|exact Hc]. apply N.div_le_upper_bound; [discriminate|].
  change (2 ^ 8) with 256. lia.
Qed.
