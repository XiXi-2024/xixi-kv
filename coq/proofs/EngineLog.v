(* EngineLog.v — the log of a database (all records of all files, in file order) and how each
   operation extends it; positions stored in the files are consistent (each record is found at
   its own position, in the file its position names). *)
From Coq Require Import ZArith Lia ZifyN ZifyNat ZifyBool Sorting.Sorted.
From KV Require Import Bytes GenConsts Chunk Record Engine Script BytesLemmas AMapLemmas
  ListLemmas EngineFiles EngineOps EngineInv.
Open Scope N_scope.

(* every id of the table is above lo *)
Fixpoint ids_above (o : list (N * lfile)) (lo : N) : Prop :=
  match o with
  | [] => True
  | (i, _) :: r => lo < i /\ ids_above r lo
  end.
(* strictly ascending ids, all below the bound: the older files, with the active id as bound (InvO) *)
Fixpoint ids_below (o : list (N * lfile)) (bound : N) : Prop :=
  match o with
  | [] => True
  | (i, _) :: r => i < bound /\ ids_above r i /\ ids_below r bound
  end.

Definition InvO (d : db) : Prop := ids_below (d_older d) (d_active_id d).

Lemma ids_above_weaken o lo lo' : lo' <= lo -> ids_above o lo -> ids_above o lo'.
Proof. induction o as [|[i f] o IH]; cbn; [auto|]. intros Hle [H1 H2]. split; [lia|auto]. Qed.
Lemma ids_below_weaken o b b' : b <= b' -> ids_below o b -> ids_below o b'.
Proof. induction o as [|[i f] o IH]; cbn; [auto|]. intros Hle (H1 & H2 & H3). repeat split; [lia|auto|auto]. Qed.

Lemma older_set_append o id f : ids_below o id -> older_set o id f = o ++ [(id, f)].
Proof.
  induction o as [|[i g] o IH]; cbn [older_set app ids_below]; [reflexivity|].
  intros (H1 & H2 & H3). destruct (i =? id) eqn:E; [lia|]. destruct (id <? i) eqn:E2; [lia|].
  rewrite IH by exact H3. reflexivity.
Qed.
Lemma ids_below_app o id f : ids_below o id -> ids_below (o ++ [(id, f)]) (id + 1).
Proof.
  induction o as [|[i g] o IH]; cbn [app ids_below ids_above]; intros H.
  - repeat split; lia.
  - destruct H as (H1 & H2 & H3). split; [lia|]. split; [|apply IH; exact H3].
    clear IH H3. induction o as [|[j h] o IH2]; cbn [app ids_above] in *; [split; [lia|exact I]|].
    destruct H2 as [H21 H22]. split; [exact H21|apply IH2; exact H22].
Qed.
Lemma older_get_none_below o id : ids_below o id -> older_get o id = None.
Proof. induction o as [|[i g] o IH]; cbn [older_get ids_below]; [reflexivity|].
  intros (H1 & _ & H3). destruct (i =? id) eqn:E; [lia|]. apply IH. exact H3. Qed.

Lemma ids_above_app o id f lo : ids_above (o ++ [(id, f)]) lo <-> ids_above o lo /\ lo < id.
Proof.
  induction o as [|[i g] o IH]; cbn [app ids_above]; [tauto|]. rewrite IH. tauto.
Qed.
Lemma ids_above_ids a b lo : map fst a = map fst b -> ids_above b lo -> ids_above a lo.
Proof.
  revert b. induction a as [|[i f] a IH]; intros [|[j g] b]; cbn [map fst ids_above]; try discriminate; [auto|].
  intros [= -> Hm] [H1 H2]. split; [exact H1|exact (IH b Hm H2)].
Qed.
Lemma ids_below_ids a b bound : map fst a = map fst b -> ids_below b bound -> ids_below a bound.
Proof.
  revert b. induction a as [|[i f] a IH]; intros [|[j g] b]; cbn [map fst ids_below]; try discriminate; [auto|].
  intros [= -> Hm] (H1 & H2 & H3). split; [exact H1|]. split; [exact (ids_above_ids a b j Hm H2)|exact (IH b Hm H3)].
Qed.

Definition file_log (f : lfile) : list record := map fst (lf_recs f).
Definition files_log (fs : list (N * lfile)) : list record := concat (map (fun x => file_log (snd x)) fs).
Definition log (d : db) : list record := files_log (d_older d) ++ file_log (d_active d).

Lemma files_log_app a b : files_log (a ++ b) = files_log a ++ files_log b.
Proof. unfold files_log. rewrite map_app, concat_app. reflexivity. Qed.

Lemma files_log_cons x fs : files_log (x :: fs) = file_log (snd x) ++ files_log fs.
Proof. reflexivity. Qed.
Lemma files_log_ext a b : Forall2 (fun x y => lf_recs (snd x) = lf_recs (snd y)) a b -> files_log a = files_log b.
Proof. induction 1 as [|x y a b Hr _ IH]; [reflexivity|]. rewrite !files_log_cons. unfold file_log. rewrite Hr, IH. reflexivity. Qed.
Lemma files_log_map_files g l : (forall f, lf_recs (g f) = lf_recs f) -> files_log (map_files g l) = files_log l.
Proof. intros Hg. induction l as [|[i f] l IH]; [reflexivity|]. cbn [map_files map]. rewrite !files_log_cons. cbn [snd].
  unfold file_log. rewrite Hg. f_equal. exact IH. Qed.
Lemma log_db_files d : InvO d -> log d = files_log (db_files d).
Proof. intros HO. unfold log, db_files. rewrite (older_set_append _ _ _ HO), files_log_app, files_log_cons. cbn [snd files_log map concat].
  rewrite app_nil_r. reflexivity. Qed.

Definition pos_ok (id : N) (f : lfile) : Prop :=
  forall r p, In (r, p) (lf_recs f) -> p_fid p = id /\ lf_lookup (lf_recs f) (p_bid p) (p_off p) = Some r.
Definition InvP (d : db) : Prop :=
  pos_ok (d_active_id d) (d_active d) /\
  forall id f, older_get (d_older d) id = Some f -> pos_ok id f.

Lemma pos_ok_same id f f' : lf_recs f' = lf_recs f -> pos_ok id f -> pos_ok id f'.
Proof. intros H Hp r p Hin. rewrite H in *. apply Hp. exact Hin. Qed.

Lemma ids_above_in o lo i f : ids_above o lo -> In (i, f) o -> lo < i.
Proof. induction o as [|[j g] o IH]; cbn [ids_above]; [intros _ []|]. intros H [[= -> _]|Hin]; [exact (proj1 H)|exact (IH (proj2 H) Hin)]. Qed.
Lemma ids_above_get o lo id f : ids_above o lo -> older_get o id = Some f -> lo < id.
Proof. intros H Hg. exact (ids_above_in o lo id f H (older_get_some_in o id f Hg)). Qed.
Lemma older_set_in_place (Rf : lfile -> lfile -> Prop) o bound fid f f' :
  (forall g, Rf g g) -> ids_below o bound -> older_get o fid = Some f -> Rf f' f ->
  Forall2 (fun x' x => fst x' = fst x /\ Rf (snd x') (snd x)) (older_set o fid f') o.
Proof.
  intros Hrefl. induction o as [|[i g] o IH]; cbn [older_get older_set ids_below]; [discriminate|].
  intros (Hb1 & Hb2 & Hb3). destruct (i =? fid) eqn:E.
  - intros [= ->] Hr. constructor; [split; [cbn; lia|exact Hr]|]. apply Forall2_diag. auto.
  - intros Hg Hr. pose proof (ids_above_get _ _ _ _ Hb2 Hg) as Hlt. destruct (fid <? i) eqn:E2; [lia|].
    constructor; [split; [reflexivity|apply Hrefl]|apply IH; assumption].
Qed.
Lemma files_touched_Forall2 io o o' bound : ids_below o bound -> files_touched io o o' ->
  Forall2 (fun x' x => fst x' = fst x /\ remapped io (snd x) (snd x')) o' o.
Proof.
  intros Hb Ht. revert Hb. induction Ht as [o|o fid f f' o' Hg Hr _ IH]; intros Hb.
  - apply Forall2_diag. intros x. split; [reflexivity|apply remapped_refl].
  - pose proof (older_set_in_place (fun g' g => remapped io g g') o bound fid f f' (remapped_refl io) Hb Hg Hr) as H1.
    assert (Hb' : ids_below (older_set o fid f') bound).
    { eapply ids_below_ids; [|exact Hb]. apply (Forall2_ids _ _ _ (fun x y H => proj1 H) H1). }
    revert H1. apply Forall2_trans; [|exact (IH Hb')].
    intros x y z [E1 R1] [E2 R2]. split; [congruence|exact (remapped_trans _ _ _ _ R2 R1)].
Qed.
Lemma log_touched {io} d d' : InvO d -> touched_by io d d' -> log d' = log d /\ InvO d'.
Proof.
  intros HO (a & o & (Ha & _) & Ho & ->). pose proof (files_touched_Forall2 _ _ _ _ HO Ho) as H2.
  unfold log, InvO, file_log. cbn [d_older d_active d_active_id]. rewrite Ha. split.
  - f_equal. apply files_log_ext. revert H2. apply Forall2_impl. intros x' x [_ Hr]. exact (proj1 Hr).
  - eapply ids_below_ids; [|exact HO]. exact (Forall2_ids _ _ _ (fun x y H => proj1 H) H2).
Qed.
Lemma InvP_touched {io} d d' : touched_by io d d' -> InvP d -> InvP d'.
Proof.
  intros (a & o & (Ha & _) & Ho & ->) [Hpa Hpo]. split; cbn [d_active d_older d_active_id].
  - exact (pos_ok_same _ _ _ Ha Hpa).
  - intros id f' Hg'. pose proof (files_touched_get _ _ _ Ho id) as Hg. rewrite Hg' in Hg.
    destruct (older_get (d_older d) id) as [f|] eqn:E; [|contradiction].
    exact (pos_ok_same _ _ _ (proj1 Hg) (Hpo id f E)).
Qed.
Lemma log_index_only d d' : index_only d d' -> log d' = log d /\ (InvO d -> InvO d') /\ (InvP d -> InvP d').
Proof. intros (ix & t & rc & ->). auto. Qed.

(* ---- growth: an optional rotation, then records appended to the active file ---------------------- *)
Definition grows (d d' : db) (new : list (record * pos)) : Prop :=
  (d_active_id d' = d_active_id d /\ d_older d' = d_older d /\
   lf_recs (d_active d') = lf_recs (d_active d) ++ new) \/
  (exists a, d_active_id d' = d_active_id d + 1 /\ d_older d' = older_set (d_older d) (d_active_id d) a /\
             lf_recs a = lf_recs (d_active d) /\ lf_recs (d_active d') = new /\ lf_size a = lf_size (d_active d)).

Lemma grows_refl d : grows d d [].
Proof. left. rewrite app_nil_r. auto. Qed.
Lemma grows_append d d1 d2 new : grows d d1 [] ->
  d_active_id d2 = d_active_id d1 -> d_older d2 = d_older d1 -> lf_recs (d_active d2) = lf_recs (d_active d1) ++ new ->
  grows d d2 new.
Proof.
  intros [(G1 & G2 & G3)|(b & G1 & G2 & G3 & G4 & G5)] Hid Hol Hr.
  - left. rewrite Hid, Hol, Hr, G1, G2, G3, app_nil_r. auto.
  - right. exists b. rewrite Hid, Hol, Hr, G1, G2, G4. auto.
Qed.

Lemma grows_spec d d' new :
  InvF d -> InvO d -> InvP d -> grows d d' new ->
  wf_lfile (d_active d') -> pos_ok (d_active_id d') (d_active d') ->
  log d' = log d ++ map fst new /\ InvF d' /\ InvO d' /\ InvP d' /\ extends d d'.
Proof.
  intros [Hact Hold] HO [Hpa Hpo] Hg Hwf Hpos. unfold InvF, InvO, InvP, log, extends, rec_at, file_of, file_log in *.
  destruct Hg as [(H1 & H2 & H3)|(a & H1 & H2 & H3 & H4 & H5)]; rewrite H1 in Hpos |- *; rewrite H2.
  - rewrite H3, map_app, <- app_assoc. split; [reflexivity|]. do 3 (split; [auto|]).
    intros q x Hq. destruct (p_fid q =? d_active_id d); [|exact Hq]. rewrite H3. apply lookup_after_append. exact Hq.
  - rewrite (older_set_append _ _ a HO), files_log_app, files_log_cons, H4. cbn [snd files_log map concat].
    unfold file_log. rewrite H3, app_nil_r, <- app_assoc. split; [reflexivity|].
    rewrite <- (older_set_append _ _ a HO).
    assert (Hget : forall id f, older_get (older_set (d_older d) (d_active_id d) a) id = Some f ->
                     (id = d_active_id d /\ f = a) \/ (id <> d_active_id d /\ older_get (d_older d) id = Some f)).
    { intros id f Hg. rewrite older_get_set in Hg. destruct (id =? d_active_id d) eqn:E; [left|right]; split; try lia; congruence. }
    split; [|split; [|split]].
    + split; [exact Hwf|]. intros id f Hg. destruct (Hget id f Hg) as [[-> ->]|[_ Hg0]].
      * split; [exact (wf_lfile_same _ _ H3 H5 Hact)|lia].
      * destruct (Hold id f Hg0). split; [assumption|lia].
    + rewrite (older_set_append _ _ a HO). apply ids_below_app. exact HO.
    + split; [exact Hpos|]. intros id f Hg. destruct (Hget id f Hg) as [[-> ->]|[_ Hg0]];
        [exact (pos_ok_same _ _ _ H3 Hpa)|exact (Hpo id f Hg0)].
    + intros q x Hq. rewrite older_get_set. destruct (p_fid q =? d_active_id d) eqn:E.
      * destruct (p_fid q =? d_active_id d + 1) eqn:E'; [lia|]. rewrite H3. exact Hq.
      * destruct (p_fid q =? d_active_id d + 1) eqn:E'; [|exact Hq].
        (* no file had the id of the new active file *)
        destruct (older_get (d_older d) (p_fid q)) as [f|] eqn:Ef; [|discriminate]. destruct (Hold _ _ Ef). lia.
Qed.

Lemma lf_append_all_ok io nm id f rs a ps ev :
  wf_lfile f -> pos_ok id f -> lf_append_all io nm id f rs = (a, ps, ev) -> wf_lfile a /\ pos_ok id a.
Proof.
  intros Hwf Hp Hla. destruct (lf_append_all_spec _ _ _ _ _ _ _ _ Hwf Hla) as (out & Hr & _ & _ & Hwfa & Hfresh & Hnth & _).
  split; [exact Hwfa|]. intros r1 p1 Hin. rewrite Hr in *. apply in_app_or in Hin. destruct Hin as [Hin|Hin].
  - destruct (Hp r1 p1 Hin) as [H1 H2]. split; [exact H1|]. apply lookup_after_append. exact H2.
  - destruct (Hfresh r1 p1 Hin) as [H1 H2]. split; [exact H1|].
    destruct (In_nth_error _ _ Hin) as [i Hi]. rewrite lookup_app_gen, H2. exact (Hnth i r1 p1 Hi).
Qed.
Lemma lf_append_ok io nm id f r a p ev :
  wf_lfile f -> pos_ok id f -> lf_append io nm id f r = (a, p, ev) -> wf_lfile a /\ pos_ok id a.
Proof. intros Hwf Hp Hla. pose proof (lf_append_single io nm id f r) as Hs. rewrite Hla in Hs. exact (lf_append_all_ok _ _ _ _ _ _ _ _ Hwf Hp Hs). Qed.

Lemma rotated_grows d : grows d (rotated d) [].
Proof. right. exists (synced (d_active d)). cbn [rotated d_active_id d_older d_active]. rewrite (proj1 (opened_fields _ lf_empty)). auto 10. Qed.
Lemma maybe_rotate_grows (c : bool) d d1 ev : (if c then db_rotate d else (d, [])) = (d1, ev) -> grows d d1 [].
Proof.
  intros H. apply (maybe_rotate_ind (fun x => grows d x []) c d d1 ev H); [apply grows_refl|].
  intros d' e Hr. rewrite (db_rotate_inv _ _ _ Hr). apply rotated_grows.
Qed.
Lemma db_append_is_grows d r d' p evs : db_append d r = (d', p, evs) -> grows d d' [(r, p)].
Proof.
  intros H. destruct (db_append_shape _ _ _ _ _ H) as (d1 & ev1 & a & ev2 & Hrot & Hla & ->).
  destruct (lf_append_fields _ _ _ _ _ _ _ _ Hla) as (Hr & _).
  apply (grows_append d d1 _ _ (maybe_rotate_grows _ _ _ _ Hrot)); cbn [d_active_id d_older d_active]; try reflexivity.
  rewrite (proj1 (if_synced_fields _ a)). exact Hr.
Qed.

Lemma maybe_rotate_active (c : bool) d d1 ev : InvF d -> InvP d -> (if c then db_rotate d else (d, [])) = (d1, ev) ->
  wf_lfile (d_active d1) /\ pos_ok (d_active_id d1) (d_active d1).
Proof.
  intros HF HP H. apply (maybe_rotate_ind (fun x => wf_lfile (d_active x) /\ pos_ok (d_active_id x) (d_active x)) c d d1 ev H).
  - split; [exact (proj1 HF)|exact (proj1 HP)].
  - intros d' e Hr. rewrite (db_rotate_inv _ _ _ Hr). cbn [rotated d_active d_active_id].
    pose proof (proj1 (opened_fields (io_of d) lf_empty)) as Hn. split; intros r p Hin; rewrite Hn in Hin; destruct Hin.
Qed.

Lemma db_rotate_log d d' evs : InvF d -> InvO d -> InvP d -> db_rotate d = (d', evs) ->
  log d' = log d /\ InvF d' /\ InvO d' /\ InvP d' /\ extends d d'.
Proof.
  intros HF HO HP Hrot. destruct (maybe_rotate_active true d d' evs HF HP Hrot) as [Hwf Hpos].
  rewrite <- (app_nil_r (log d)). exact (grows_spec d d' [] HF HO HP (maybe_rotate_grows true d d' evs Hrot) Hwf Hpos).
Qed.

Lemma db_append_log d r d' p evs : InvF d -> InvO d -> InvP d -> db_append d r = (d', p, evs) ->
  log d' = log d ++ [r] /\ InvF d' /\ InvO d' /\ InvP d' /\ extends d d'.
Proof.
  intros HF HO HP Happ. pose proof (db_append_is_grows _ _ _ _ _ Happ) as Hg.
  destruct (db_append_shape _ _ _ _ _ Happ) as (d1 & ev1 & a & ev2 & Hrot & Hla & ->).
  destruct (maybe_rotate_active _ _ _ _ HF HP Hrot) as [Hwf1 Hp1].
  destruct (lf_append_ok _ _ _ _ _ _ _ _ Hwf1 Hp1 Hla) as [Hwfa Hpa].
  destruct (if_synced_fields (sync_due (d_cfg d1) (d_bytes_write d1 + p_size p)) a) as (E1 & E2 & _).
  (* what is left: the new active file is well formed and holds its records at their positions *)
  apply (grows_spec d _ [(r, p)] HF HO HP Hg); cbn [d_active_id d_active].
  - exact (wf_lfile_same _ _ E1 E2 Hwfa).
  - exact (pos_ok_same _ _ _ E1 Hpa).
Qed.

Lemma active_append_log d r a p ev (s : bool) :
  InvF d -> InvO d -> InvP d ->
  lf_append (io_of d) (FData (d_active_id d)) (d_active_id d) (d_active d) r = (a, p, ev) ->
  let d' := set_active d (d_active_id d) (if s then synced a else a) in
  log d' = log d ++ [r] /\ InvF d' /\ InvO d' /\ InvP d' /\ extends d d'.
Proof.
  intros HF HO HP Hla. destruct (lf_append_ok _ _ _ _ _ _ _ _ (proj1 HF) (proj1 HP) Hla) as [Hwfa Hpa].
  destruct (lf_append_fields _ _ _ _ _ _ _ _ Hla) as (Hr & _). destruct (if_synced_fields s a) as (E1 & E2 & _).
  apply (grows_spec d _ [(r, p)] HF HO HP); cbn [set_active d_active d_active_id].
  - left. cbn [set_active d_active_id d_older d_active]. rewrite E1, Hr. auto.
  - exact (wf_lfile_same _ _ E1 E2 Hwfa).
  - exact (pos_ok_same _ _ _ E1 Hpa).
Qed.
