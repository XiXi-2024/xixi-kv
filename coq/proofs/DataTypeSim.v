(* DataTypeSim.v — the commands do not depend on the store they run on: two stores whose Get agree
   give the same reply and the same plan.  With the engine theorems (step_G: every operation of the
   engine refines the ordered map, in every reachable state incl. pending merges) this carries a command
   on the engine model to the same command on the map. *)
From Coq Require Import List NArith Lia Bool.
From KV Require Import Bytes GenConsts Record Engine Script DataType DataTypeRun DataTypeSpec.
From KV Require Import EngineMergeRun.
Import ListNotations.
Open Scope N_scope.

Section Sim.
Variables (S1 S2 : Type).
Variable get1 : S1 -> bytes -> S1 * option bytes.
Variable get2 : S2 -> bytes -> S2 * option bytes.
Variable Q : S1 -> S2 -> Prop.
Hypothesis Hget : forall s1 s2 k, Q s1 s2 -> Q (fst (get1 s1 k)) (fst (get2 s2 k)) /\ snd (get1 s1 k) = snd (get2 s2 k).

Ltac sim_get :=
  match goal with
  | HQ : Q ?a ?b |- context [get1 ?a ?k] =>
    let H := fresh "Hg" in pose proof (Hget a b k HQ) as H;
    destruct (get1 a k) as [? ?]; destruct (get2 b k) as [? ?]; cbn [fst snd] in H;
    let H1 := fresh "HQ" in let H2 := fresh "He" in destruct H as [H1 H2]; subst
  end.
Ltac sim_step :=
  first [ sim_get
        | match goal with |- context [if ?x then _ else _] => destruct x end
        | match goal with |- context [match ?x with _ => _ end] => destruct x end ].

Lemma dt_cmd_sim c ver now s1 s2 : Q s1 s2 ->
  Q (fst (fst (dt_cmd S1 get1 s1 c ver now))) (fst (fst (dt_cmd S2 get2 s2 c ver now))) /\
  snd (fst (dt_cmd S1 get1 s1 c ver now)) = snd (fst (dt_cmd S2 get2 s2 c ver now)) /\
  snd (dt_cmd S1 get1 s1 c ver now) = snd (dt_cmd S2 get2 s2 c ver now).
Proof.
  intros HQ. destruct c; cbn [dt_cmd];
  unfold dt_set, dt_get, dt_del, dt_type, dt_hset, dt_hget, dt_hdel, dt_sadd, dt_sismember, dt_srem, dt_push, dt_pop, dt_zadd, dt_zscore, find;
  repeat sim_step; cbn [fst snd]; auto.
Qed.
End Sim.

Lemma stage_run_bops : forall ws d b evs0,
  stage d b ws evs0 =
  (fst (fst (fst (run_bops d b (map bop_of ws)))), snd (fst (fst (run_bops d b (map bop_of ws)))),
   evs0 ++ snd (run_bops d b (map bop_of ws))).
Proof.
  induction ws as [|w ws IH]; intros d b evs0; cbn [stage map run_bops].
  - cbn [fst snd]. rewrite app_nil_r. reflexivity.
  - destruct w as [k v|k]; cbn [bop_of].
    1: destruct (batch_put d b k v) as [[[d1 b1] e] ev1].
    2: destruct (batch_delete d b k) as [[[d1 b1] e] ev1].
    all: rewrite IH; destruct (run_bops d1 b1 (map bop_of ws)) as [[[d2 b2] rs] ev2]; cbn [fst snd]; rewrite app_assoc; reflexivity.
Qed.

Section Engine.
Variable kd : disk.
Definition QE (s : est) (M : smap) : Prop := G (fst s) kd M.

Lemma e_get_m_get s M key : QE s M ->
  QE (fst (e_get s key)) (fst (m_get M key)) /\ snd (e_get s key) = snd (m_get M key).
Proof.
  intros HG. destruct s as [d evs]. unfold QE in *. cbn [fst] in HG. unfold e_get, m_get.
  destruct (db_get d key) as [[d1 r] ev] eqn:Eg. cbn [fst snd].
  assert (Hst : step (d, kd) (OpGet key) = ((d1, kd), RVal r, ev)) by (cbn [step]; rewrite Eg; reflexivity).
  destruct (step_G d kd M (OpGet key) d1 kd (RVal r) ev HG I Hst) as [HG1 Hp].
  cbn [sstep fst snd proj] in HG1, Hp. injection Hp as ->. split; [exact HG1|reflexivity].
Qed.

Lemma apply_plan_m_apply s M p bid : QE s M -> bid <> 0 ->
  QE (fst (apply_plan s p bid)) (fst (m_apply M p)) /\ snd (apply_plan s p bid) = snd (m_apply M p).
Proof.
  intros HG Hb. destruct s as [d evs]. unfold QE in *. cbn [fst] in HG. destruct p as [|k v|k|ws]; cbn [apply_plan m_apply].
  - cbn [fst snd]. auto.
  - destruct (db_put d k v) as [[d1 e] ev] eqn:E. cbn [fst snd].
    assert (Hst : step (d, kd) (OpPut k v) = ((d1, kd), RErr e, ev)) by (cbn [step]; rewrite E; reflexivity).
    destruct (step_G d kd M (OpPut k v) d1 kd (RErr e) ev HG I Hst) as [HG1 Hp].
    cbn [sstep] in HG1, Hp. destruct (s_put M k v) as [M' e']. cbn [fst snd proj] in *. injection Hp as ->. auto.
  - destruct (db_delete d k) as [[d1 e] ev] eqn:E. cbn [fst snd].
    assert (Hst : step (d, kd) (OpDel k) = ((d1, kd), RErr e, ev)) by (cbn [step]; rewrite E; reflexivity).
    destruct (step_G d kd M (OpDel k) d1 kd (RErr e) ev HG I Hst) as [HG1 Hp].
    cbn [sstep] in HG1, Hp. destruct (s_del M k) as [M' e']. cbn [fst snd proj] in *. injection Hp as ->. auto.
  - rewrite stage_run_bops.
    destruct (run_bops d (new_batch false bid) (map bop_of ws)) as [[[d1 b1] rs] ev1] eqn:Er. cbn [fst snd].
    destruct (batch_commit d1 b1) as [[[d2 b2] e2] ev2] eqn:Ec. cbn [fst snd].
    assert (Hst : step (d, kd) (OpBatch false bid (map bop_of ws)) = ((d2, kd), RBatch rs e2, ev1 ++ ev2)).
    { cbn [step]. rewrite Er, Ec. reflexivity. }
    destruct (step_G d kd M (OpBatch false bid (map bop_of ws)) d2 kd _ _ HG Hb Hst) as [HG1 Hp].
    cbn [sstep] in HG1, Hp. destruct (s_bops M (map bop_of ws)) as [mf rs']. cbn [fst snd proj] in *.
    injection Hp as _ ->. auto.
Qed.

(* a command on the engine, from any reachable state (rotated files, pending or adopted merges ...),
   is the command on the map *)
Theorem run_cmd_G d M c ver now bid d' out evs :
  G d kd M -> bid <> 0 -> run_cmd d c ver now bid = (d', out, evs) ->
  G d' kd (fst (m_cmd M c ver now)) /\ out = snd (m_cmd M c ver now).
Proof.
  intros HG Hb Hr. unfold run_cmd, m_cmd in *.
  assert (HQ : QE (d, []) M) by exact HG.
  pose proof (dt_cmd_sim est smap e_get m_get QE e_get_m_get c ver now (d, []) M HQ) as (H1 & H2 & H3).
  destruct (dt_cmd est e_get (d, []) c ver now) as [[s1 r] p].
  destruct (dt_cmd smap m_get M c ver now) as [[M1 r'] p']. cbn [fst snd] in H1, H2, H3. subst r' p'.
  pose proof (apply_plan_m_apply s1 M1 p bid H1 Hb) as (H4 & H5).
  destruct (apply_plan s1 p bid) as [s2 e]. destruct (m_apply M1 p) as [M2 e']. cbn [fst snd] in *. subst e'.
  injection Hr as <- <- _. split; [exact H4|reflexivity].
Qed.
End Engine.
