(* DataTypeCodec.v — the encodings of datatype/meta.go: varint round trips, metadata round trip,
   injectivity of the internal keys, and the uint64 arithmetic of list indices. *)
From Coq Require Import List NArith Lia Bool.
From Coq Require Import ZifyN ZifyBool.
From KV Require Import Bytes GenConsts BytesLemmas DataType.
Import ListNotations.
Open Scope N_scope.

Lemma uvarint_fuel_put : forall (f : nat) i acc x rest,
  (1 <= f)%nat -> i + N.of_nat f = 10 -> x * 2 ^ (7 * i) < 2 ^ 64 ->
  uvarint_fuel f i (7 * i) acc (put_uvarint_fuel f x ++ rest)
  = Some (acc + x * 2 ^ (7 * i), i + len (put_uvarint_fuel f x)).
Proof.
  induction f as [|f IH]; intros i acc x rest Hf Hi Hx; [lia|].
  cbn [put_uvarint_fuel uvarint_fuel].
  destruct (x <? 128) eqn:Ex.
  - cbn [app]. rewrite Ex. apply N.ltb_lt in Ex.
    assert (Hchk : (i =? 9) && (1 <? x) = false).
    { destruct (i =? 9) eqn:E9; [|reflexivity]. apply N.eqb_eq in E9. subst i. cbn [andb].
      apply N.ltb_ge. change (7 * 9) with 63 in Hx.
      assert (2 ^ 64 = 2 * 2 ^ 63) by reflexivity. nia. }
    rewrite Hchk. unfold len. cbn [length]. reflexivity.
  - apply N.ltb_ge in Ex. cbn [app].
    assert (Hb : (x mod 128 + 128 <? 128) = false) by (apply N.ltb_ge; lia). rewrite Hb.
    destruct f as [|f'].
    { (* i = 9 and x >= 128: impossible *)
      assert (i = 9) by lia. subst i. change (7 * 9) with 63 in Hx.
      assert (2 ^ 64 = 2 * 2 ^ 63) by reflexivity. assert (0 < 2 ^ 63) by (apply N.neq_0_lt_0; apply N.pow_nonzero; lia). nia. }
    assert (Hm : (x mod 128 + 128) mod 128 = x mod 128).
    { rewrite N.add_mod by lia. change (128 mod 128) with 0. rewrite N.add_0_r. rewrite N.mod_mod by lia. apply N.mod_mod. lia. }
    rewrite Hm.
    assert (Hs : 7 * i + 7 = 7 * (i + 1)) by lia. rewrite Hs.
    assert (Hp : 2 ^ (7 * (i + 1)) = 128 * 2 ^ (7 * i)).
    { rewrite <- Hs. rewrite N.pow_add_r. change (2 ^ 7) with 128. lia. }
    pose proof (N.div_mod x 128 ltac:(lia)) as Hdm.
    rewrite IH; [| lia | lia |].
    + f_equal. f_equal.
      * rewrite Hp. generalize (2 ^ (7 * i)) (x / 128) (x mod 128) Hdm. intros P q r ->. ring.
      * rewrite (len_cons _ (put_uvarint_fuel (S f') (x / 128))). lia.
    + rewrite Hp. revert Hx. generalize (2 ^ (7 * i)) (x / 128) (x mod 128) Hdm. clear. intros P q r -> Hx. nia.
Qed.

Lemma uvarint_put x rest : x < 2 ^ 64 -> uvarint (put_uvarint x ++ rest) = Some (x, len (put_uvarint x)).
Proof.
  intros Hx. unfold uvarint, put_uvarint.
  pose proof (uvarint_fuel_put 10 0 0 x rest ltac:(lia) ltac:(reflexivity)) as H.
  change (7 * 0) with 0 in H. rewrite N.pow_0_r, N.mul_1_r in H. rewrite H by exact Hx. f_equal.
Qed.

Lemma varint_nonneg_put x rest : x < 2 ^ 63 ->
  varint_nonneg (put_varint_nonneg x ++ rest) = Some (x, len (put_varint_nonneg x)).
Proof.
  intros Hx. unfold varint_nonneg, put_varint_nonneg.
  assert (H2 : 2 * x < 2 ^ 64). { assert (2 ^ 64 = 2 * 2 ^ 63) by reflexivity. lia. }
  rewrite (uvarint_put (2 * x) rest H2).
  rewrite N.odd_mul. change (N.odd 2) with false. cbn [andb].
  f_equal. f_equal. rewrite N.mul_comm. apply N.div_mul. lia.
Qed.

Definition wf_meta (m : meta) : Prop :=
  m_expire m < 2 ^ 63 /\ m_version m < 2 ^ 63 /\ m_size m < 2 ^ 63 /\ m_head m < 2 ^ 64 /\ m_tail m < 2 ^ 64 /\
  (m_type m <> ty_List -> m_head m = 0 /\ m_tail m = 0).

Theorem dec_enc_meta m : wf_meta m -> dec_meta (enc_meta m) = Some m.
Proof.
  intros (He & Hv & Hs & Hh & Ht & Hnl). unfold enc_meta, dec_meta. cbn [app].
  rewrite varint_nonneg_put by exact He. rewrite drop_app_exact by reflexivity.
  rewrite varint_nonneg_put by exact Hv. rewrite drop_app_exact by reflexivity.
  rewrite varint_nonneg_put by exact Hs.
  destruct (m_type m =? ty_List) eqn:E.
  - rewrite drop_app_exact by reflexivity.
    rewrite uvarint_put by exact Hh. rewrite drop_app_exact by reflexivity.
    rewrite <- (app_nil_r (put_uvarint (m_tail m))). rewrite uvarint_put by exact Ht.
    destruct m; reflexivity.
  - apply N.eqb_neq in E. destruct (Hnl E) as [H0 H1]. destruct m; cbn in *. subst. reflexivity.
Qed.

Lemma wf_with_size m s : wf_meta m -> s < 2 ^ 63 -> wf_meta (with_size m s).
Proof. intros (H1 & H2 & _ & H4 & H5 & H6) Hs. unfold wf_meta, with_size. cbn [m_type m_expire m_version m_size m_head m_tail]. auto 8. Qed.
Lemma with_size_same m : with_size m (m_size m) = m.
Proof. destruct m. reflexivity. Qed.
Lemma wf_list_meta ty ex v s h t :
  ty = ty_List -> ex < 2 ^ 63 -> v < 2 ^ 63 -> s < 2 ^ 63 -> h < 2 ^ 64 -> t < 2 ^ 64 -> wf_meta (mkMeta ty ex v s h t).
Proof. intros. unfold wf_meta. cbn [m_type m_expire m_version m_size m_head m_tail]. repeat split; try assumption; contradiction. Qed.
Lemma wf_fresh dt ver : ver < 2 ^ 63 -> wf_meta (fresh_meta dt ver).
Proof.
  intros Hv. unfold fresh_meta. destruct (dt =? ty_List) eqn:E.
  - apply wf_list_meta; try assumption; try reflexivity. apply N.eqb_eq. exact E.
  - apply N.eqb_neq in E. unfold wf_meta. cbn [m_type m_expire m_version m_size m_head m_tail]. repeat split; try assumption; reflexivity.
Qed.

Lemma enc_meta_head m : exists r, enc_meta m = m_type m :: r.
Proof. unfold enc_meta. cbn [app]. eexists. reflexivity. Qed.

Definition ikey (k : bytes) (ver : N) (y : bytes) : bytes := k ++ le64 ver ++ y.

(* every internal key of datatype/types.go is of this form *)
Lemma hash_key_ikey : hash_key = ikey.
Proof. reflexivity. Qed.
Lemma zmember_key_ikey : zmember_key = ikey.
Proof. reflexivity. Qed.
Lemma set_key_ikey k ver x : set_key k ver x = ikey k ver (x ++ le32 (len x)).
Proof. reflexivity. Qed.
Lemma list_key_ikey k ver i : list_key k ver i = ikey k ver (le64 i).
Proof. reflexivity. Qed.

Lemma app_eq_len {A} : forall (a a' b b' : list A), length a = length a' -> a ++ b = a' ++ b' -> a = a' /\ b = b'.
Proof.
  induction a as [|x a IH]; intros [|x' a'] b b' Hl He; cbn in *; try discriminate.
  - auto.
  - injection He as -> He. injection Hl as Hl. destruct (IH _ _ _ Hl He) as [-> ->]. auto.
Qed.

Lemma le32_inj a b : a < 4294967296 -> b < 4294967296 -> le32 a = le32 b -> a = b.
Proof. intros Ha Hb H. rewrite <- (rd32_le32 a Ha), <- (rd32_le32 b Hb). rewrite H. reflexivity. Qed.

Lemma le64_inj a b : a < 2 ^ 64 -> b < 2 ^ 64 -> le64 a = le64 b -> a = b.
Proof.
  change (2 ^ 64) with (4294967296 * 4294967296). intros Ha Hb H. unfold le64 in H.
  apply app_eq_len in H; [|reflexivity]. destruct H as [H1 H2].
  apply le32_inj in H1; [|apply N.mod_lt; discriminate ..].
  apply le32_inj in H2; [|apply N.div_lt_upper_bound; [discriminate|assumption] ..].
  rewrite (N.div_mod a 4294967296), (N.div_mod b 4294967296) by discriminate. rewrite H1, H2. reflexivity.
Qed.

Lemma length_le64 v : length (le64 v) = 8%nat. Proof. reflexivity. Qed.

Lemma ikey_inj k v y v' y' : v < 2 ^ 64 -> v' < 2 ^ 64 -> ikey k v y = ikey k v' y' -> v = v' /\ y = y'.
Proof.
  intros Hv Hv' H. unfold ikey in H. apply app_inv_head in H.
  apply app_eq_len in H; [|reflexivity]. destruct H as [H1 H2]. split; [apply le64_inj; assumption|exact H2].
Qed.

Lemma ikey_neq_self k v y : ikey k v y <> k.
Proof.
  unfold ikey. intros H. apply (f_equal (@length _)) in H. rewrite !app_length, length_le64 in H. lia.
Qed.

Lemma ikey_len k v y : len (ikey k v y) <> 0.
Proof. unfold ikey. rewrite !len_app. change (len (le64 v)) with 8. lia. Qed.

Lemma suffix_len_inj (m m' : bytes) : m ++ le32 (len m) = m' ++ le32 (len m') -> m = m'.
Proof.
  intros H. assert (Hl : length m = length m').
  { apply (f_equal (@length _)) in H. rewrite !app_length in H. cbn in H. lia. }
  apply (app_eq_len _ _ _ _ Hl H).
Qed.

Lemma wrap64_lt x : wrap64 x < 2 ^ 64.
Proof. apply N.mod_lt. discriminate. Qed.
Lemma wrap64_small x : x < 2 ^ 64 -> wrap64 x = x.
Proof. apply N.mod_small. Qed.
Lemma wrap64_idem a b : wrap64 (wrap64 a + b) = wrap64 (a + b).
Proof. apply N.add_mod_idemp_l. discriminate. Qed.
Lemma wrap64_succ h i : wrap64 (wrap64 (h + 1) + i) = wrap64 (h + (i + 1)).
Proof. rewrite wrap64_idem. f_equal. lia. Qed.
(* adding 2^64 - 1 is subtracting 1 *)
Lemma wrap64_pred h i : 0 < i -> wrap64 (h + i + 18446744073709551615) = wrap64 (h + (i - 1)).
Proof.
  intros Hi. replace (h + i + 18446744073709551615) with (h + (i - 1) + 1 * 18446744073709551616) by lia.
  apply N.mod_add. discriminate.
Qed.
Lemma wrap64_add_inj h i j : i < 2 ^ 64 -> j < 2 ^ 64 -> wrap64 (h + i) = wrap64 (h + j) -> i = j.
Proof.
  unfold wrap64. change (2 ^ 64) with 18446744073709551616. intros Hi Hj E.
  pose proof (N.div_mod (h + i) 18446744073709551616 ltac:(discriminate)) as Ei.
  pose proof (N.div_mod (h + j) 18446744073709551616 ltac:(discriminate)) as Ej.
  rewrite E in Ei. revert Ei Ej.
  generalize ((h + i) / 18446744073709551616), ((h + j) / 18446744073709551616), ((h + j) mod 18446744073709551616).
  lia.
Qed.

(* the sorted-set collision (D22): the member record of one member is the score-order record of another *)
Theorem zset_keys_collide k ver score m :
  zmember_key k ver (score ++ m ++ le32 (len m)) = zscore_key k ver score m.
Proof. reflexivity. Qed.
