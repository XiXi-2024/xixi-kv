(* FramingProofs.v — writeToBuf / DataReader.next / readToBuf.  The readers accept any chunk list that is
   laid out block by block; what the writer emits for a record is such a list, carrying the record. *)
From Coq Require Import ZArith Lia ZifyN ZifyNat ZifyBool.
From KV Require Import Bytes GenConsts Chunk BytesLemmas ChunkProofs DamageProofs.
Open Scope N_scope.

(* the reader's eager skip of a block tail too short for a header = the writer's lazy padding *)
Definition norm (bid off : N) : N * N := if blockSize <=? off + chunkHeaderSize then (bid + 1, 0) else (bid, off).

Lemma norm_end b o b' o' :
  o <= blockSize -> o' < blockSize -> b * blockSize + o = b' * blockSize + o' -> norm b o = norm b' o'.
Proof.
  unfold norm. rewrite blockSize_val, chunkHeaderSize_val. intros Ho Ho' E.
  assert (H : o = 32768 /\ b' = b + 1 /\ o' = 0 \/ o = o' /\ b = b') by lia.
  destruct H as [(-> & -> & ->)|(-> & ->)]; reflexivity.
Qed.

Lemma chunks_step cf first room (d : bytes) : 0 < len d ->
  chunks (S cf) first room d =
    if len d <=? room then [(if first then ct_Full else ct_Last, d)]
    else (if first then ct_First else ct_Middle, take room d) :: chunks cf false (blockSize - chunkHeaderSize) (drop room d).
Proof.
  intros Hpos. cbn [chunks]. destruct (len d =? 0) eqn:E0; [lia|]. destruct (len d <=? room) eqn:E1.
  - rewrite N.eqb_refl, take_all, drop_all by lia. destruct cf; reflexivity.
  - destruct (room =? len d) eqn:E2; [lia|]. reflexivity.
Qed.

Lemma nchunks_step room n : 0 < n ->
  nchunks room n = if n <=? room then 1 else 1 + nchunks (blockSize - chunkHeaderSize) (n - room).
Proof.
  intros Hpos. unfold nchunks. rewrite blockSize_val, chunkHeaderSize_val. destruct (n =? 0) eqn:E0; [lia|].
  destruct (n <=? room) eqn:E1; [reflexivity|]. set (m := n - room). assert (Hm : 0 < m) by (unfold m; lia).
  destruct (m =? 0) eqn:E2; [lia|]. f_equal. change (32768 - 7) with 32761.
  destruct (m <=? 32761) eqn:E3.
  - (* at most one more block: the quotient is 1 *)
    symmetry. apply (N.div_unique _ _ 1 (m - 1)); lia.
  - (* one block, and the count of the rest *)
    replace (m + 32761 - 1) with ((m - 32761 + 32761 - 1) + 1 * 32761) by lia.
    rewrite N.div_add by discriminate. lia.
Qed.

Lemma chunks_last cf first room (d : bytes) : (0 < cf)%nat -> 0 < len d -> len d <= room ->
  chunks cf first room d = [(if first then ct_Full else ct_Last, d)].
Proof.
  destruct cf as [|cf]; [lia|]. intros _ Hpos Hfit. rewrite chunks_step by exact Hpos.
  destruct (_ <=? room) eqn:E; [reflexivity|lia].
Qed.

Lemma chunks_cons cf first room (a rest : bytes) :
  (length (a ++ rest) < cf)%nat -> len a = room -> 0 < len rest ->
  chunks cf first room (a ++ rest)
  = (if first then ct_First else ct_Middle, a) :: chunks (pred cf) false (blockSize - chunkHeaderSize) rest.
Proof.
  intros Hcf Ha Hrest. destruct cf as [|cf]; [lia|]. rewrite chunks_step, len_app by (rewrite len_app; lia).
  destruct (_ <=? room) eqn:E; [lia|]. rewrite take_app_exact, drop_app_exact by (symmetry; exact Ha). reflexivity.
Qed.

Section WithCrc.
Variable crc : bytes -> N.

Notation enc_chunk := (enc_chunk crc).
Notation read_chunk := (read_chunk crc).
Definition enc_all (cs : list (N * bytes)) : bytes := concat (map enc_chunk cs).
Definition payload (cs : list (N * bytes)) : bytes := concat (map snd cs).

Lemma enc_all_cons c cs : enc_all (c :: cs) = enc_chunk c ++ enc_all cs.
Proof. reflexivity. Qed.
Lemma payload_cons c cs : payload (c :: cs) = snd c ++ payload cs.
Proof. reflexivity. Qed.

Lemma len_enc_all cs : len (enc_all cs) = len cs * chunkHeaderSize + len (payload cs).
Proof.
  induction cs as [|c cs IH]; [reflexivity|].
  rewrite enc_all_cons, payload_cons, !len_app, len_cons, (len_enc_chunk crc), IH, chunkHeaderSize_val. lia.
Qed.

(* [laid off cs e]: written from block offset [off], every chunk of [cs] but the last ends exactly at
   the end of its block and has a continuing type, the last one has a final type and ends at offset [e]
   of its block.  Nothing relates a chunk to its neighbours or to the block it stands in. *)
Inductive laid : N -> list (N * bytes) -> N -> Prop :=
| laid_last off ty d : is_last ty = true -> off + chunkHeaderSize + len d <= blockSize ->
    laid off [(ty, d)] (off + chunkHeaderSize + len d)
| laid_more off ty d cs e : is_last ty = false -> off + chunkHeaderSize + len d = blockSize ->
    laid 0 cs e -> laid off ((ty, d) :: cs) e.

Lemma laid_end off cs e : laid off cs e ->
  e <= blockSize /\ forall bid, bid * blockSize + off + len (enc_all cs) = (bid + len cs - 1) * blockSize + e.
Proof.
  induction 1 as [off ty d _ Hfit|off ty d cs e _ Hfill _ [IHe IH]]; (split; [assumption|intros bid]);
    rewrite len_enc_all, payload_cons, len_app, len_cons; cbn [snd].
  - rewrite blockSize_val, chunkHeaderSize_val. change (payload []) with (@nil byte). cbn [len]. lia.
  - specialize (IH (bid + 1)). rewrite len_enc_all in IH. rewrite blockSize_val, chunkHeaderSize_val in *. lia.
Qed.

Lemma chunks_laid : forall cf first off (d : bytes),
  (length d < cf)%nat -> 0 < len d -> off + chunkHeaderSize < blockSize ->
  let cs := chunks cf first (blockSize - off - chunkHeaderSize) d in
  payload cs = d /\ len cs = nchunks (blockSize - off - chunkHeaderSize) (len d) /\ exists e, laid off cs e.
Proof.
  induction cf as [|cf IH]; intros first off d Hcf Hpos Hoff; [lia|]. cbv zeta.
  set (room := blockSize - off - chunkHeaderSize). rewrite chunks_step, nchunks_step by exact Hpos.
  destruct (len d <=? room) eqn:E1.
  - split; [apply app_nil_r|]. split; [reflexivity|]. eexists.
    apply laid_last; [destruct first; reflexivity|unfold room in E1; rewrite blockSize_val, chunkHeaderSize_val in *; lia].
  - destruct (IH false 0 (drop room d)) as (Hpay & Hcnt & e & Hl);
      [rewrite length_drop; pose proof (len_length d); unfold room; rewrite blockSize_val, chunkHeaderSize_val in *; lia
      |rewrite len_drop; lia|rewrite blockSize_val, chunkHeaderSize_val; lia|].
    rewrite N.sub_0_r, len_drop in *.
    split; [rewrite payload_cons, Hpay; apply take_drop|]. split; [rewrite len_cons, Hcnt; lia|].
    exists e. apply laid_more; [destruct first; reflexivity| |exact Hl].
    rewrite len_take_le by lia. unfold room. rewrite blockSize_val, chunkHeaderSize_val in *. lia.
Qed.

Hypothesis crc_u32 : forall b, crc b < 4294967296.

Lemma read_chunk_enc pre ty p post bid off :
  len pre = bid * blockSize + off -> off + chunkHeaderSize + len p <= blockSize ->
  read_chunk (pre ++ enc_chunk (ty, p) ++ post) (len (pre ++ enc_chunk (ty, p) ++ post)) bid off
  = CData p ty.
Proof.
  intros Hpre Hfit. rewrite blockSize_val, chunkHeaderSize_val in Hfit.
  destruct (read_chunk_at crc pre (enc_chunk (ty, p)) post bid off Hpre) as (tl & e & ->);
    rewrite ?(len_enc_chunk crc), ?blockSize_val; cbn [snd]; try lia.
  unfold chunk_at. rewrite (decode_enc crc crc_u32) by lia. reflexivity.
Qed.

Lemma reader_laid off cs e : laid off cs e -> forall pre post fid bid0 off0 bid cnt acc,
  len pre = bid * blockSize + off ->
  reader_next_fuel crc (length cs) (pre ++ enc_all cs ++ post) (len (pre ++ enc_all cs ++ post))
    fid bid0 off0 bid off cnt acc
  = Ok (acc ++ payload cs,
        mkPos fid bid0 off0 ((cnt + len cs) * chunkHeaderSize + len (acc ++ payload cs)),
        fst (norm (bid + len cs - 1) e), snd (norm (bid + len cs - 1) e)).
Proof.
  induction 1 as [off ty d Hty Hfit|off ty d cs e Hty Hfill _ IH]; intros pre post fid bid0 off0 bid cnt acc Hpre;
    cbn [length reader_next_fuel]; rewrite enc_all_cons, <- app_assoc, len_cons, payload_cons; cbn [snd].
  - rewrite read_chunk_enc, Hty by assumption. cbv zeta. change (payload []) with (@nil byte). cbn [len].
    rewrite app_nil_r, N.add_0_l. replace (bid + 1 - 1) with bid by lia.
    unfold norm. destruct (blockSize <=? _); reflexivity.
  - (* the chunk fills its block: the rest is laid out from offset 0 of the next one *)
    assert (Hfit : off + chunkHeaderSize + len d <= blockSize) by (rewrite Hfill; apply N.le_refl).
    assert (Hpre' : len (pre ++ enc_chunk (ty, d)) = (bid + 1) * blockSize + 0)
      by (rewrite len_app, (len_enc_chunk crc), Hpre; cbn [snd]; rewrite blockSize_val, chunkHeaderSize_val in *; lia).
    rewrite read_chunk_enc, Hty by assumption. rewrite (app_assoc pre), (IH _ _ _ _ _ _ _ _ Hpre'), <- app_assoc.
    replace (cnt + 1 + len cs) with (cnt + (len cs + 1)) by lia.
    replace (bid + 1 + len cs - 1) with (bid + (len cs + 1) - 1) by lia. reflexivity.
Qed.

Lemma reader_next_laid off cs e pre post fid bid : laid off cs e -> len pre = bid * blockSize + off ->
  reader_next crc (pre ++ enc_all cs ++ post) fid bid off
  = Ok (payload cs, mkPos fid bid off (len cs * chunkHeaderSize + len (payload cs)),
        fst (norm (bid + len cs - 1) e), snd (norm (bid + len cs - 1) e)).
Proof. intros Hl Hpre. eapply reader_next_of_fuel. rewrite (reader_laid _ _ _ Hl) by exact Hpre. reflexivity. Qed.

Lemma read_at_laid off cs e pre post bid : laid off cs e -> len pre = bid * blockSize + off ->
  let f := pre ++ enc_all cs ++ post in
  read_at_fuel crc (blocks_fuel (len f)) f (len f) bid off [] = Ok (payload cs).
Proof.
  intros Hl Hpre f. pose proof (read_at_fuel_of_reader crc (blocks_fuel (len f)) f (len f) 0 bid off bid off 0 []) as P.
  fold (reader_next crc f 0 bid off) in P. unfold f in P at 1. rewrite (reader_next_laid _ _ _ _ _ _ _ Hl Hpre) in P. exact P.
Qed.

End WithCrc.
