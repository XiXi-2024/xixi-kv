(* ShardProofs.v — index/sharded_index.go: the shard count (nextPowerOfTwo) and the point operations
   of the sharded index refine one ordered map, whatever the assignment of keys to shards (C14). *)
From Coq Require Import ZArith Lia Sorted Permutation.
From KV Require Import Bytes GenConsts Chunk Engine Index BytesLemmas AMapLemmas ListLemmas.
Import ListNotations.

(* nextPowerOfTwo smears the top bit of n downwards: bit p is the highest, and the w bits from p
   downwards are set; or-ing with the shift by w doubles w *)
Definition top (p w n : Z) : Prop :=
  (forall i, (0 <= i)%Z -> (p - w < i <= p)%Z -> Z.testbit n i = true) /\ (forall i, (p < i)%Z -> Z.testbit n i = false).

Lemma top_smear p w n : (0 < w)%Z -> (0 <= p)%Z -> top p w n -> top p (2 * w) (Z.lor n (Z.shiftr n w)).
Proof.
  intros Hw Hp [Hin Hout]. split; intros i Hi; [intros Hr|]; rewrite Z.lor_spec, Z.shiftr_spec by lia.
  - destruct (Z_lt_le_dec (p - w) i); [rewrite Hin by lia; reflexivity|]. rewrite (Hin (i + w)%Z) by lia. apply orb_true_r.
  - rewrite !Hout by lia. reflexivity.
Qed.
Lemma top_ones p w n : (0 <= p < w)%Z -> top p w n -> n = Z.ones (p + 1).
Proof.
  intros Hp [Hin Hout]. apply Z.bits_inj'. intros i Hi. destruct (Z_lt_le_dec p i).
  - rewrite Hout, Z.ones_spec_high by lia. reflexivity.
  - rewrite Hin, Z.ones_spec_low by lia. reflexivity.
Qed.
Lemma top_ge p w n : (0 <= p)%Z -> (0 < w)%Z -> top p w n -> (2 ^ p <= n)%Z.
Proof.
  intros Hp Hw [Hin Hout]. assert (Hn : (0 <= n)%Z) by (apply Z.bits_iff_nonneg_ex; exists p; exact Hout).
  assert (Hb : Z.testbit n p = true) by (apply Hin; lia).
  destruct (Z.eq_dec n 0) as [->|Hn0]; [rewrite Z.bits_0 in Hb; discriminate|].
  destruct (Z_lt_le_dec (Z.log2 n) p) as [Hl|Hl]; [rewrite (Z.bits_above_log2 n p Hn Hl) in Hb; discriminate|].
  etransitivity; [apply Z.pow_le_mono_r; [lia|exact Hl]|apply Z.log2_spec; lia].
Qed.

Lemma npt_val cap : (1 < cap)%Z ->
  next_power_of_two cap = if (Z.log2 (cap - 1) <? 10)%Z then (2 ^ (Z.log2 (cap - 1) + 1))%Z else 1024%Z.
Proof.
  intros Hc. unfold next_power_of_two. destruct (cap <? 1)%Z eqn:E; [apply Z.ltb_lt in E; lia|].
  set (n0 := (cap - 1)%Z). set (p := Z.log2 n0). pose proof (Z.log2_nonneg n0) as Hp. fold p in Hp.
  assert (T : top p 1 n0).
  { split; [intros i _ Hi; replace i with p by lia; apply Z.bit_log2; lia|intros i Hi; apply Z.bits_above_log2; lia]. }
  apply (top_smear p 1), (top_smear p 2), (top_smear p 4), (top_smear p 8), (top_smear p 16) in T; try lia.
  cbv zeta. set (n5 := Z.lor _ (Z.shiftr _ 16)) in *. change (Z.of_N maxShardCap) with (2 ^ 10)%Z. destruct (Z.ltb_spec p 10) as [Hs|Hl].
  - rewrite (top_ones p (2 * 16) n5 ltac:(lia) T), Z.ones_equiv.
    assert (Hpow : (2 ^ (p + 1) <= 2 ^ 10)%Z) by (apply Z.pow_le_mono_r; lia).
    destruct (Z.leb_spec (2 ^ 10) (Z.pred (2 ^ (p + 1)))); lia.
  - pose proof (top_ge p (2 * 16) n5 Hp ltac:(lia) T) as Hge. assert (Hpow : (2 ^ 10 <= 2 ^ p)%Z) by (apply Z.pow_le_mono_r; lia).
    destruct (Z.leb_spec (2 ^ 10) n5); [reflexivity|lia].
Qed.

(* for EVERY requested shard count - zero, negative, beyond the maximum - the index has 2^k shards with
   k <= 10, at least as many as requested unless the maximum is reached, and the shard chosen for any
   64-bit hash exists *)
Theorem shard_count_spec (cap : Z) :
  let n := next_power_of_two cap in
  (exists k, (0 <= k <= 10)%Z /\ n = (2 ^ k)%Z) /\ (cap <= n \/ n = 1024)%Z /\
  forall hash, (0 <= shard_of_hash n hash < n)%Z.
Proof.
  cbv zeta.
  assert (Hk : exists k, ((0 <= k <= 10) /\ next_power_of_two cap = 2 ^ k /\ (cap <= 2 ^ k \/ k = 10))%Z).
  { destruct (Z_lt_le_dec 1 cap) as [H1|H1].
    - rewrite (npt_val cap H1). pose proof (Z.log2_nonneg (cap - 1)). destruct (Z.ltb_spec (Z.log2 (cap - 1)) 10).
      + exists (Z.log2 (cap - 1) + 1)%Z. pose proof (proj2 (Z.log2_spec (cap - 1) ltac:(lia))) as Hs. rewrite <- Z.add_1_r in Hs.
        split; [lia|]. split; [reflexivity|lia].
      + exists 10%Z. auto with zarith.
    - exists 0%Z. split; [lia|]. split; [|left; exact H1]. unfold next_power_of_two.
      destruct (Z.ltb_spec cap 1); [reflexivity|]. replace cap with 1%Z by lia. reflexivity. }
  destruct Hk as (k & Hk & -> & Hc). split; [exists k; auto|]. split.
  - destruct Hc as [Hc| ->]; [left; exact Hc|right; reflexivity].
  - intros hash. unfold shard_of_hash. replace (2 ^ k - 1)%Z with (Z.ones k) by (rewrite Z.ones_equiv; lia).
    rewrite Z.land_ones by lia. apply Z.mod_pos_bound. apply Z.pow_pos_nonneg; lia.
Qed.

Lemma shard_count_positive cap : (0 < Z.to_nat (next_power_of_two cap))%nat.
Proof.
  destruct (shard_count_spec cap) as ((k & Hk & E) & _). rewrite E.
  assert (0 < 2 ^ k)%Z by (apply Z.pow_pos_nonneg; lia). lia.
Qed.

Section KeyFilter.
Variable Pk : bytes -> bool.
Let P (x : bytes * pos) : bool := Pk (fst x).

Lemma sorted_filter (m : amap pos) : sorted m -> sorted (filter P m).
Proof. apply StronglySorted_filter. Qed.

Lemma get_filter (m : amap pos) k : sorted m -> amap_get (filter P m) k = if Pk k then amap_get m k else None.
Proof.
  induction m as [|[k0 v0] m IH]; intros Hs; cbn [filter amap_get]; [destruct (Pk k); reflexivity|].
  destruct (sorted_inv _ _ Hs) as [Hs' Hf]. unfold P at 1. cbn [fst].
  destruct (bytes_eqb k k0) eqn:E.
  - apply bytes_eqb_eq in E. subst k0. destruct (Pk k) eqn:Ep.
    + cbn [amap_get]. rewrite bytes_eqb_refl. reflexivity.
    + exact (IH Hs').
  - destruct (Pk k0); [cbn [amap_get]; rewrite E|]; apply IH; exact Hs'.
Qed.

Lemma filter_update (f : amap pos -> amap pos) k r (m : amap pos) :
  (forall m, sorted m -> sorted (f m)) ->
  (forall m k', sorted m -> amap_get (f m) k' = if bytes_eqb k' k then r else amap_get m k') ->
  sorted m -> filter P (f m) = if Pk k then f (filter P m) else filter P m.
Proof.
  intros Hfs Hfg Hs. pose proof (sorted_filter m Hs) as Hf.
  assert (Hget : forall k', amap_get (filter P (f m)) k' = if Pk k' then (if bytes_eqb k' k then r else amap_get m k') else None).
  { intros k'. rewrite (get_filter _ k' (Hfs m Hs)), (Hfg m k' Hs). reflexivity. }
  (* both sides are sorted: compare them key by key; they can differ at k only *)
  destruct (Pk k) eqn:Ep; (apply sorted_ext; [apply sorted_filter, Hfs, Hs|auto|]); intros k'; rewrite Hget.
  - rewrite (Hfg _ k' Hf), (get_filter m k' Hs). destruct (bytes_eqb k' k) eqn:E; [|reflexivity].
    apply bytes_eqb_eq in E. subst k'. rewrite Ep. reflexivity.
  - rewrite (get_filter m k' Hs). destruct (bytes_eqb k' k) eqn:E; [|reflexivity].
    apply bytes_eqb_eq in E. subst k'. rewrite Ep. reflexivity.
Qed.
End KeyFilter.

Section Sharded.
Variable shf : bytes -> nat.
Variable n : nat.
Hypothesis Hn : (0 < n)%nat.

Definition in_shard (i : nat) (k : bytes) : bool := Nat.eqb (shard_ix shf n k) i.
Definition shards (ix : index) : list index := map (fun i => filter (fun x => in_shard i (fst x)) ix) (seq 0 n).

Lemma shards_is_shards_of ix : shards ix = shards_of shf n false ix.
Proof. reflexivity. Qed.

Lemma shard_ix_lt k : (shard_ix shf n k < n)%nat.
Proof. unfold shard_ix. apply Nat.mod_upper_bound. lia. Qed.
Lemma in_shard_self k : in_shard (shard_ix shf n k) k = true.
Proof. apply Nat.eqb_refl. Qed.

Lemma nth_shards ix i : (i < n)%nat -> nth i (shards ix) [] = filter (fun x => in_shard i (fst x)) ix.
Proof.
  intros Hi. unfold shards. rewrite (nth_indep _ [] (filter (fun x => in_shard 0 (fst x)) ix)) by (rewrite map_length, seq_length; exact Hi).
  rewrite (map_nth (fun i => filter (fun x => in_shard i (fst x)) ix)), seq_nth by exact Hi. reflexivity.
Qed.

Lemma sh_get_shards ix k : sorted ix -> sh_get shf n (shards ix) k = idx_get ix k.
Proof.
  intros Hs. unfold sh_get, idx_get. rewrite nth_shards by apply shard_ix_lt.
  rewrite (get_filter (in_shard (shard_ix shf n k)) ix k Hs), in_shard_self. reflexivity.
Qed.

Lemma shards_update (f : amap pos -> amap pos) k r ix :
  (forall m, sorted m -> sorted (f m)) ->
  (forall m k', sorted m -> amap_get (f m) k' = if bytes_eqb k' k then r else amap_get m k') ->
  sorted ix -> upd_nth (shards ix) (shard_ix shf n k) (f (nth (shard_ix shf n k) (shards ix) [])) = shards (f ix).
Proof.
  intros Hfs Hfg Hs. set (i := shard_ix shf n k). rewrite nth_shards by apply shard_ix_lt.
  pose proof (fun j => filter_update (in_shard j) f k r ix Hfs Hfg Hs) as Hj.
  replace (f (filter (fun x => in_shard i (fst x)) ix)) with (filter (fun x => in_shard i (fst x)) (f ix)) by (rewrite Hj; unfold i; rewrite in_shard_self; reflexivity).
  apply (upd_nth_map_seq _ (fun j => filter (fun x => in_shard j (fst x)) (f ix)) n 0 i (shard_ix_lt k)).
  intros j Hne. rewrite Hj. destruct (in_shard j k) eqn:E; [|reflexivity].
  apply Nat.eqb_eq in E. exfalso. apply Hne. symmetry. exact E.
Qed.

Lemma sh_put_shards ix k p : sorted ix ->
  sh_put shf n (shards ix) k p = (shards (fst (idx_put ix k p)), snd (idx_put ix k p)).
Proof.
  intros Hs. unfold sh_put, idx_put. rewrite (surjective_pairing (amap_put (nth _ _ _) k p)). f_equal.
  - apply (shards_update (fun m => fst (amap_put m k p)) k (Some p)); [intros m; apply amap_put_sorted|intros m k' _; apply amap_get_put|exact Hs].
  - rewrite amap_put_old by (rewrite nth_shards by apply shard_ix_lt; apply sorted_filter, Hs).
    etransitivity; [exact (sh_get_shards ix k Hs)|]. symmetry. apply amap_put_old. exact Hs.
Qed.

Lemma sh_del_shards ix k : sorted ix ->
  sh_del shf n (shards ix) k = (shards (fst (idx_del ix k)), snd (idx_del ix k)).
Proof.
  intros Hs. unfold sh_del, idx_del. rewrite (surjective_pairing (amap_del (V:=pos) (nth _ _ _) k)). f_equal.
  - apply (shards_update (fun m => fst (amap_del m k)) k None); [intros m; apply amap_del_sorted|intros m k'; apply amap_get_del|exact Hs].
  - rewrite amap_del_old. etransitivity; [exact (sh_get_shards ix k Hs)|]. symmetry. apply amap_del_old.
Qed.

Lemma sh_size_concat shs : sh_size shs = length (concat shs).
Proof. induction shs as [|s l IH]; [reflexivity|]. cbn [sh_size fold_right concat]. rewrite app_length. f_equal. exact IH. Qed.
Lemma sh_size_shards ix : sh_size (shards ix) = length ix.
Proof.
  rewrite sh_size_concat. apply Permutation_length.
  exact (classes_perm (fun x => shard_ix shf n (fst x)) n ix (fun x _ => shard_ix_lt (fst x))).
Qed.

Lemma sh_step_shards ix o : sorted ix ->
  sh_step shf n (shards ix) o = (shards (fst (flat_step ix o)), snd (flat_step ix o)) /\ sorted (fst (flat_step ix o)).
Proof.
  intros Hs. destruct o as [k p|k|k|]; cbn [sh_step flat_step].
  - rewrite (sh_put_shards ix k p Hs). unfold idx_put. pose proof (amap_put_sorted ix k p Hs).
    destruct (amap_put ix k p) as [s old]. cbn [fst snd] in *. split; [reflexivity|assumption].
  - rewrite (sh_get_shards ix k Hs). cbn [fst snd]. split; [reflexivity|assumption].
  - rewrite (sh_del_shards ix k Hs). unfold idx_del. pose proof (amap_del_sorted ix k Hs).
    destruct (amap_del ix k) as [s old]. cbn [fst snd] in *. split; [reflexivity|assumption].
  - rewrite sh_size_shards. cbn [fst snd]. split; [reflexivity|assumption].
Qed.

Theorem sharded_refines_flat : forall ops ix, sorted ix ->
  sh_run shf n (shards ix) ops = (shards (fst (flat_run ix ops)), snd (flat_run ix ops)).
Proof.
  induction ops as [|o ops IH]; intros ix Hs; cbn [sh_run flat_run]; [reflexivity|].
  destruct (sh_step_shards ix o Hs) as [E Hs']. rewrite E.
  destruct (flat_step ix o) as [ix' x]. cbn [fst snd] in *.
  rewrite (IH ix' Hs'). destruct (flat_run ix' ops) as [ix'' xs]. reflexivity.
Qed.
End Sharded.
