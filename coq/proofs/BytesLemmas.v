(* BytesLemmas.v — take/drop/len on lists indexed by N, zeros, byte-string equality, little-endian integers. *)
From Coq Require Import ZArith Lia ZifyN ZifyNat ZifyBool.
From KV Require Import Bytes.
Open Scope N_scope.
#[global] Arguments N.add : simpl never.
#[global] Arguments N.sub : simpl never.
#[global] Arguments N.mul : simpl never.
#[global] Arguments N.div : simpl never.
#[global] Arguments N.modulo : simpl never.
#[global] Arguments N.ltb : simpl never.
#[global] Arguments N.leb : simpl never.
#[global] Arguments N.eqb : simpl never.
#[global] Arguments N.pow : simpl never.

Lemma len_nil {A} : len (@nil A) = 0. Proof. reflexivity. Qed.
Lemma len_cons {A} (x : A) l : len (x :: l) = len l + 1.
Proof. cbn [len]. lia. Qed.
Lemma len_app {A} (a b : list A) : len (a ++ b) = len a + len b.
Proof. induction a as [|x a IH]; cbn [app]; rewrite ?len_nil, ?len_cons, ?IH; lia. Qed.
Lemma len_length {A} (l : list A) : len l = N.of_nat (length l).
Proof. induction l as [|x l IH]; [reflexivity|]. rewrite len_cons, IH. cbn [length]. lia. Qed.
Lemma len_0_nil {A} (l : list A) : len l = 0 -> l = [].
Proof. destruct l; [reflexivity|]. rewrite len_cons. lia. Qed.

Lemma take_0 {A} (l : list A) : take 0 l = [].
Proof. destruct l; reflexivity. Qed.
Lemma drop_0 {A} (l : list A) : drop 0 l = l.
Proof. destruct l; reflexivity. Qed.
Lemma take_nil {A} n : take n (@nil A) = []. Proof. reflexivity. Qed.
Lemma drop_nil {A} n : drop n (@nil A) = []. Proof. reflexivity. Qed.
Lemma take_cons {A} n (x : A) l : 0 < n -> take n (x :: l) = x :: take (n - 1) l.
Proof. intros H. cbn [take]. destruct (n =? 0) eqn:E; [lia|reflexivity]. Qed.

Lemma take_drop {A} n (l : list A) : take n l ++ drop n l = l.
Proof. revert n; induction l as [|x r IH]; intros n; cbn [take drop]; [reflexivity|].
  destruct (n =? 0) eqn:E; cbn [app]; [reflexivity| now rewrite IH]. Qed.
Lemma len_drop {A} n (l : list A) : len (drop n l) = len l - n.
Proof. revert n; induction l as [|x r IH]; intros n; cbn [drop].
  - rewrite len_nil; lia.
  - destruct (n =? 0) eqn:E; [lia|]. rewrite len_cons, IH. lia. Qed.
Lemma len_take {A} n (l : list A) : len (take n l) = if n <=? len l then n else len l.
Proof.
  pose proof (f_equal len (take_drop n l)) as H. rewrite len_app, len_drop in H.
  destruct (n <=? len l) eqn:E; lia.
Qed.
Lemma len_take_le {A} n (l : list A) : n <= len l -> len (take n l) = n.
Proof. intros H. rewrite len_take. destruct (n <=? len l) eqn:E; lia. Qed.
Lemma length_drop {A} n (l : list A) : length (drop n l) = (length l - N.to_nat n)%nat.
Proof. pose proof (len_length (drop n l)) as H. rewrite len_drop, len_length in H. lia. Qed.
Lemma drop_drop {A} (l : list A) a b : drop a (drop b l) = drop (a + b) l.
Proof. revert a b; induction l as [|x r IH]; intros a b; cbn [drop]; [reflexivity|].
  destruct (b =? 0) eqn:Eb.
  - assert (b = 0) by lia; subst. rewrite N.add_0_r. reflexivity.
  - destruct (a + b =? 0) eqn:Eab; [lia|]. rewrite IH. f_equal; lia. Qed.
Lemma drop_all {A} (l : list A) n : len l <= n -> drop n l = [].
Proof. intros H. apply len_0_nil. rewrite len_drop. lia. Qed.
Lemma take_all {A} (l : list A) n : len l <= n -> take n l = l.
Proof. intros H. rewrite <- (take_drop n l) at 2. rewrite (drop_all l n H). symmetry. apply app_nil_r. Qed.
Lemma take_app {A} n (a b : list A) : take n (a ++ b) = take n a ++ take (n - len a) b.
Proof.
  revert n; induction a as [|x a IH]; intros n; cbn [app take].
  - rewrite len_nil, N.sub_0_r. reflexivity.
  - rewrite len_cons. destruct (n =? 0) eqn:E.
    + replace (n - (len a + 1)) with 0 by lia. rewrite take_0. reflexivity.
    + cbn [app]. rewrite IH. replace (n - 1 - len a) with (n - (len a + 1)) by lia. reflexivity.
Qed.
Lemma drop_app {A} n (a b : list A) : drop n (a ++ b) = drop n a ++ drop (n - len a) b.
Proof.
  revert n; induction a as [|x a IH]; intros n; cbn [app drop].
  - rewrite len_nil, N.sub_0_r. reflexivity.
  - rewrite len_cons. destruct (n =? 0) eqn:E.
    + replace (n - (len a + 1)) with 0 by lia. rewrite drop_0. reflexivity.
    + rewrite IH. replace (n - 1 - len a) with (n - (len a + 1)) by lia. reflexivity.
Qed.
Lemma take_app_le {A} (a b : list A) n : n <= len a -> take n (a ++ b) = take n a.
Proof. intros H. rewrite take_app. replace (n - len a) with 0 by lia. rewrite take_0. apply app_nil_r. Qed.
Lemma take_app_ge {A} (a b : list A) n : len a <= n -> take n (a ++ b) = a ++ take (n - len a) b.
Proof. intros H. rewrite take_app, take_all by exact H. reflexivity. Qed.
Lemma take_app_exact {A} (a b : list A) n : n = len a -> take n (a ++ b) = a.
Proof. intros ->. rewrite take_app_ge, N.sub_diag, take_0 by apply N.le_refl. apply app_nil_r. Qed.
Lemma drop_app_le {A} (a b : list A) n : n <= len a -> drop n (a ++ b) = drop n a ++ b.
Proof. intros H. rewrite drop_app. replace (n - len a) with 0 by lia. rewrite drop_0. reflexivity. Qed.
Lemma drop_app_ge {A} (a b : list A) n : len a <= n -> drop n (a ++ b) = drop (n - len a) b.
Proof. intros H. rewrite drop_app, drop_all by exact H. reflexivity. Qed.
Lemma drop_app_exact {A} (a b : list A) n : n = len a -> drop n (a ++ b) = b.
Proof. intros ->. rewrite drop_app_ge, N.sub_diag by apply N.le_refl. apply drop_0. Qed.
Lemma take_take {A} (l : list A) a b : a <= b -> take a (take b l) = take a l.
Proof. revert a b; induction l as [|x r IH]; intros a b H; cbn [take]; [reflexivity|].
  destruct (b =? 0) eqn:Eb.
  - assert (a = 0) by lia. subst. cbn [take]. rewrite N.eqb_refl. reflexivity.
  - cbn [take]. destruct (a =? 0); [reflexivity|]. rewrite IH by lia. reflexivity. Qed.
Lemma take_add {A} (l : list A) a b : take (a + b) l = take a l ++ take b (drop a l).
Proof. revert a b; induction l as [|x r IH]; intros a b; cbn [take drop]; [reflexivity|].
  destruct (a =? 0) eqn:Ea.
  - assert (a = 0) by lia; subst. rewrite N.add_0_l. cbn [app take]. reflexivity.
  - destruct (a + b =? 0) eqn:Eab; [lia|]. cbn [app]. f_equal.
    replace (a + b - 1) with ((a - 1) + b) by lia. apply IH. Qed.

Lemma drop_1 {A} (l : list A) : drop 1 l = tl l.
Proof. destruct l as [|x r]; [reflexivity|]. cbn [drop tl]. destruct (1 =? 0) eqn:E; [lia|]. apply drop_0. Qed.
Lemma drop_pos_eq {A} p (l : list A) : drop_pos p l = drop (Npos p) l.
Proof. revert l; induction p as [q IH|q IH|]; intros l; cbn [drop_pos].
  - rewrite !IH, drop_drop, <- drop_1, drop_drop. f_equal. lia.
  - rewrite !IH, drop_drop. f_equal. lia.
  - symmetry. apply drop_1. Qed.
Lemma fdrop_eq {A} n (l : list A) : fdrop n l = drop n l.
Proof. destruct n as [|p]; cbn [fdrop]; [symmetry; apply drop_0 | apply drop_pos_eq]. Qed.

Lemma slice_eq i j (l : bytes) : slice i j l = take (j - i) (drop i l).
Proof. unfold slice. rewrite fdrop_eq. reflexivity. Qed.

Lemma len_zeros_pos p : len (zeros_pos p) = Npos p.
Proof. induction p as [q IH|q IH|]; cbn [zeros_pos]; rewrite ?len_cons, ?len_app, ?IH, ?len_nil; lia. Qed.
Lemma len_zeros n : len (zeros n) = n.
Proof. destruct n; [reflexivity| apply len_zeros_pos]. Qed.
Lemma all_zero_app a b : all_zero (a ++ b) = all_zero a && all_zero b.
Proof. induction a as [|x a IH]; cbn [app all_zero]; [reflexivity|]. rewrite IH. destruct (x =? 0); reflexivity. Qed.
Lemma all_zero_zeros_pos p : all_zero (zeros_pos p) = true.
Proof. induction p as [q IH|q IH|]; cbn [zeros_pos all_zero]; rewrite ?all_zero_app, ?IH; reflexivity. Qed.
Lemma all_zero_zeros n : all_zero (zeros n) = true.
Proof. destruct n; [reflexivity| apply all_zero_zeros_pos]. Qed.

Lemma bytes_eqb_eq a b : bytes_eqb a b = true <-> a = b.
Proof.
  revert b; induction a as [|x a IH]; intros [|y b]; cbn [bytes_eqb]; split; intros H; try discriminate; auto.
  - apply andb_prop in H as [Hx Hr]. apply N.eqb_eq in Hx. apply IH in Hr. congruence.
  - injection H as -> ->. rewrite N.eqb_refl. apply IH. reflexivity.
Qed.
Lemma bytes_eqb_refl a : bytes_eqb a a = true.
Proof. apply bytes_eqb_eq. reflexivity. Qed.
Lemma bytes_eqb_neq a b : bytes_eqb a b = false <-> a <> b.
Proof. rewrite <- bytes_eqb_eq. destruct (bytes_eqb a b); split; congruence. Qed.

Lemma rd16_le16 n : n < 65536 -> rd16 (le16 n) = n.
Proof. intros H. unfold rd16, le16. cbn [app]. lia. Qed.
Lemma rd32_le32 n : n < 4294967296 -> rd32 (le32 n) = n.
Proof. intros H. unfold rd32, le32. cbn [app]. lia. Qed.
Lemma le32_rd32 (a : bytes) : len a = 4 -> Forall (fun x => x < 256) a -> le32 (rd32 a) = a.
Proof.
  intros La Fa. destruct a as [|a0 [|a1 [|a2 [|a3 [|? ?]]]]]; rewrite ?len_cons, ?len_nil in La; try lia.
  inversion Fa as [|? ? B0 F1]. inversion F1 as [|? ? B1 F2]. inversion F2 as [|? ? B2 F3]. inversion F3 as [|? ? B3 _].
  unfold le32, rd32. repeat f_equal; lia.
Qed.
Lemma len_le16 n : len (le16 n) = 2. Proof. reflexivity. Qed.
Lemma len_le32 n : len (le32 n) = 4. Proof. reflexivity. Qed.

Definition byte_ok (b : N) : Prop := b < 256.
Definition bytes_ok (l : bytes) : Prop := Forall byte_ok l.
