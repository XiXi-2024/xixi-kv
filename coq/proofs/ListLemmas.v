(* ListLemmas.v — facts about lists that several layers share: filtering and partitions into classes,
   strongly sorted lists, positions (skipn, firstn of a list of lists), replacing the i-th element,
   runs of a partial step function, pointwise relations between two lists (Forall2), pairs, NoDup. *)
From Coq Require Import List Arith Lia Sorting.Sorted Sorting.Permutation.
From KV Require Import Index.
From KV Require Conc LockOrder LockSet RefHeap.
Import ListNotations.

Section Filter.
Context {A : Type}.
Implicit Types (p q : A -> bool) (l : list A).

Lemma filter_all_true p l : (forall x, In x l -> p x = true) -> filter p l = l.
Proof.
  induction l as [|x l IH]; intros H; [reflexivity|]. cbn [filter]. rewrite (H x (or_introl eq_refl)).
  f_equal. apply IH. intros y Hy. apply H. right. exact Hy.
Qed.
Lemma filter_all_false p l : (forall x, In x l -> p x = false) -> filter p l = [].
Proof.
  induction l as [|x l IH]; intros H; [reflexivity|]. cbn [filter]. rewrite (H x (or_introl eq_refl)).
  apply IH. intros y Hy. apply H. right. exact Hy.
Qed.
Lemma filter_comm p q l : filter p (filter q l) = filter q (filter p l).
Proof.
  induction l as [|x l IH]; [reflexivity|]. cbn [filter].
  destruct (q x) eqn:Eq, (p x) eqn:Ep; cbn [filter]; rewrite ?Eq, ?Ep, IH; reflexivity.
Qed.
Lemma filter_filter_sub p q l : (forall x, In x l -> p x = true -> q x = true) -> filter p (filter q l) = filter p l.
Proof. intros H. rewrite filter_comm. apply filter_all_true. intros x Hx. apply filter_In in Hx. apply H; tauto. Qed.

Lemma filter_length_le p l : length (filter p l) <= length l.
Proof. induction l as [|x l IH]; [reflexivity|]. cbn [filter]. destruct (p x); cbn [length]; lia. Qed.

Lemma filter_partition_perm p l : Permutation (filter p l ++ filter (fun x => negb (p x)) l) l.
Proof.
  induction l as [|x l IH]; [constructor|]. cbn [filter]. destruct (p x); cbn [negb app].
  - apply perm_skip. exact IH.
  - eapply perm_trans; [apply Permutation_sym; apply Permutation_middle|]. apply perm_skip. exact IH.
Qed.
Lemma Permutation_filter p l l' : Permutation l l' -> Permutation (filter p l) (filter p l').
Proof.
  induction 1 as [|x l l' _ IH|x y l|l l' l'' _ IH1 _ IH2]; cbn [filter].
  - constructor.
  - destruct (p x); [apply perm_skip|]; exact IH.
  - destruct (p x), (p y); try apply Permutation_refl. apply perm_swap.
  - exact (perm_trans IH1 IH2).
Qed.

Lemma classes_perm (cl : A -> nat) n l : (forall x, In x l -> cl x < n) ->
  Permutation (concat (map (fun i => filter (fun x => cl x =? i) l) (seq 0 n))) l.
Proof.
  induction l as [|x l IH]; intros Hcl.
  - cbn [filter]. induction (seq 0 n) as [|i L IHL]; [constructor|exact IHL].
  - eapply perm_trans; [|apply perm_skip; apply IH; intros y Hy; apply Hcl; right; exact Hy].
    (* [x] joins the one class [cl x] of the interval *)
    assert (H : forall L, NoDup L -> In (cl x) L ->
      Permutation (concat (map (fun i => filter (fun y => cl y =? i) (x :: l)) L))
                  (x :: concat (map (fun i => filter (fun y => cl y =? i) l) L))).
    { induction L as [|i L IHL]; intros Hnd Hin; [destruct Hin|]. inversion Hnd as [|? ? Hi HL]; subst.
      cbn [map concat filter]. destruct (cl x =? i) eqn:E.
      - apply Nat.eqb_eq in E. subst i. cbn [app]. apply perm_skip. apply Permutation_app_head.
        erewrite map_ext_in; [apply Permutation_refl|]. intros j Hj. cbn [filter].
        destruct (cl x =? j) eqn:Ej; [apply Nat.eqb_eq in Ej; congruence|reflexivity].
      - apply Nat.eqb_neq in E. destruct Hin as [Hin|Hin]; [congruence|].
        eapply perm_trans; [apply Permutation_app_head; exact (IHL HL Hin)|]. apply Permutation_sym, Permutation_middle. }
    apply H; [apply seq_NoDup|]. apply in_seq. pose proof (Hcl x (or_introl eq_refl)). lia.
Qed.
End Filter.

Section Sorted.
Context {A : Type} (R : A -> A -> Prop).

Lemma StronglySorted_filter p l : StronglySorted R l -> StronglySorted R (filter p l).
Proof.
  induction 1 as [|x l _ IH Hx]; cbn [filter]; [constructor|]. destruct (p x); [|exact IH].
  constructor; [exact IH|]. apply Forall_forall. intros y Hy. apply filter_In in Hy.
  rewrite Forall_forall in Hx. apply Hx. tauto.
Qed.
Lemma StronglySorted_app a b : StronglySorted R (a ++ b) <->
  StronglySorted R a /\ StronglySorted R b /\ forall x y, In x a -> In y b -> R x y.
Proof.
  induction a as [|z a IH]; cbn [app].
  - split; [intros H; split; [constructor|split; [exact H|intros x y []]]|tauto].
  - split.
    + intros H. inversion H as [|? ? Hs Hz]; subst. apply IH in Hs. destruct Hs as (Ha & Hb & Hab).
      rewrite Forall_forall in Hz. split; [|split; [exact Hb|]].
      * constructor; [exact Ha|]. apply Forall_forall. intros y Hy. apply Hz. apply in_or_app. left. exact Hy.
      * intros x y [<-|Hx] Hy; [apply Hz; apply in_or_app; right; exact Hy|apply Hab; assumption].
    + intros (Ha & Hb & Hab). inversion Ha as [|? ? Hs Hz]; subst. constructor.
      * apply IH. split; [exact Hs|]. split; [exact Hb|]. intros x y Hx. apply Hab. right. exact Hx.
      * apply Forall_app. split; [exact Hz|]. apply Forall_forall. intros y Hy. apply Hab; [left; reflexivity|exact Hy].
Qed.
End Sorted.
Lemma StronglySorted_rev {A} (R : A -> A -> Prop) l : StronglySorted R l -> StronglySorted (fun a b => R b a) (rev l).
Proof.
  induction 1 as [|x l _ IH Hx]; [constructor|]. cbn [rev]. apply StronglySorted_app.
  split; [exact IH|]. split; [repeat constructor|].
  intros a b Ha [<-|[]]. apply in_rev in Ha. rewrite Forall_forall in Hx. apply Hx. exact Ha.
Qed.

Lemma hd_error_skipn {A} : forall (l : list A) n, hd_error (skipn n l) = nth_error l n.
Proof. induction l as [|x l IH]; intros [|n]; cbn; auto. Qed.
Lemma skipn_S_tl {A} : forall (l : list A) n, skipn (S n) l = tl (skipn n l).
Proof. induction l as [|x l IH]; intros [|n]; try reflexivity. cbn [skipn]. rewrite <- IH. reflexivity. Qed.
Lemma skipn_tl {A} (l : list A) n : skipn (S n) l = skipn n (tl l).
Proof. destruct l as [|x l]; cbn [skipn tl]; [destruct n; reflexivity|reflexivity]. Qed.
Lemma concat_firstn_S {A} (l : list (list A)) n : concat (firstn (S n) l) = hd [] l ++ concat (firstn n (tl l)).
Proof. destruct l as [|x l]; cbn [firstn hd tl concat]; [destruct n; reflexivity|reflexivity]. Qed.
Lemma concat_firstn_add {A} (l : list (list A)) a b :
  concat (firstn (a + b) l) = concat (firstn a l) ++ concat (firstn b (skipn a l)).
Proof.
  rewrite <- concat_app. f_equal. revert l. induction a as [|a IH]; intros l; [reflexivity|].
  destruct l as [|x l]; cbn [plus firstn skipn app]; [destruct b; reflexivity|]. rewrite IH. reflexivity.
Qed.

(* Replacing the i-th element.  The model writes this function five times (Index.upd_nth,
   Conc.set_nth, LockOrder.set_thr, LockSet.set_athr, RefHeap.set_cell); the lemmas are about upd_nth
   and the other four are rewritten to it. *)
Section UpdNth.
Context {A : Type}.
Implicit Types (l : list A) (x y : A).

Lemma upd_nth_length l i x : length (upd_nth l i x) = length l.
Proof. revert i. induction l as [|y l IH]; intros [|i]; cbn; auto. Qed.

Lemma nth_error_upd_eq l i x : i < length l -> nth_error (upd_nth l i x) i = Some x.
Proof. revert i. induction l as [|y l IH]; intros [|i] Hi; cbn in *; [lia|lia|reflexivity|apply IH; lia]. Qed.

Lemma nth_error_upd_neq l i j x : i <> j -> nth_error (upd_nth l i x) j = nth_error l j.
Proof. revert i j. induction l as [|y l IH]; intros [|i] [|j] Hij; cbn; try reflexivity; [lia|apply IH; lia]. Qed.

Lemma nth_error_upd l i j x y : nth_error (upd_nth l i x) j = Some y ->
  (j = i /\ y = x) \/ (j <> i /\ nth_error l j = Some y).
Proof.
  intros H. destruct (Nat.eq_dec i j) as [->|Hij]; [left|right; rewrite nth_error_upd_neq in H by exact Hij; auto].
  assert (Hj : j < length l) by (rewrite <- (upd_nth_length l j x); apply nth_error_Some; congruence).
  rewrite (nth_error_upd_eq l j x Hj) in H. split; congruence.
Qed.

Lemma nth_upd_eq l i x d : i < length l -> nth i (upd_nth l i x) d = x.
Proof. intros Hi. apply nth_error_nth. apply nth_error_upd_eq. exact Hi. Qed.

Lemma nth_upd_neq l i j x d : i <> j -> nth j (upd_nth l i x) d = nth j l d.
Proof. revert i j. induction l as [|y l IH]; intros [|i] [|j] Hij; cbn; try reflexivity; [lia|apply IH; lia]. Qed.

Lemma In_upd l i x y : In y (upd_nth l i x) -> y = x \/ In y l.
Proof.
  revert i. induction l as [|z l IH]; intros [|i]; cbn; try tauto.
  - intros [<-|H]; auto.
  - intros [<-|H]; [auto|]. destruct (IH _ H); auto.
Qed.

Lemma Forall_upd (P : A -> Prop) l i x : Forall P l -> P x -> Forall P (upd_nth l i x).
Proof.
  intros Hl Hx. apply Forall_forall. intros y Hy. destruct (In_upd _ _ _ _ Hy) as [->|Hin]; [exact Hx|].
  rewrite Forall_forall in Hl. exact (Hl y Hin).
Qed.

Lemma upd_nth_map_seq (f g : nat -> A) len : forall start i, i < len ->
  (forall j, j <> start + i -> g j = f j) ->
  upd_nth (map f (seq start len)) i (g (start + i)) = map g (seq start len).
Proof.
  induction len as [|len IH]; intros start [|i] Hi Hg; [lia|lia| |]; cbn [seq map upd_nth].
  - rewrite Nat.add_0_r. f_equal. apply map_ext_in. intros j Hj. apply in_seq in Hj. symmetry. apply Hg. lia.
  - rewrite (Hg start) by lia. f_equal. rewrite <- Nat.add_succ_comm. apply IH; [lia|].
    intros j Hj. apply Hg. lia.
Qed.
End UpdNth.

Lemma set_nth_upd {A} (l : list A) i x : Conc.set_nth l i x = upd_nth l i x.
Proof. revert i. induction l as [|y l IH]; intros [|i]; cbn; f_equal; auto. Qed.
Lemma set_thr_upd s i t : LockOrder.set_thr s i t = upd_nth s i t.
Proof. revert i. induction s as [|y s IH]; intros [|i]; cbn; f_equal; auto. Qed.
Lemma set_athr_upd s i t : LockSet.set_athr s i t = upd_nth s i t.
Proof. revert i. induction s as [|y s IH]; intros [|i]; cbn; f_equal; auto. Qed.
Lemma set_cell_upd h a b : RefHeap.set_cell h a b = upd_nth h a b.
Proof. revert a. induction h as [|y h IH]; intros [|a]; cbn; f_equal; auto. Qed.

Section Run.
Context {S I : Type} (step : S -> I -> option S).

Fixpoint orun (s : S) (sched : list I) : S :=
  match sched with
  | [] => s
  | i :: r => match step s i with Some s' => orun s' r | None => orun s r end
  end.

Lemma orun_inv (P : S -> Prop) : (forall s i s', P s -> step s i = Some s' -> P s') ->
  forall sched s, P s -> P (orun s sched).
Proof.
  intros Hstep. induction sched as [|i sched IH]; intros s Hs; cbn [orun]; [exact Hs|].
  destruct (step s i) as [s'|] eqn:E; apply IH; [exact (Hstep _ _ _ Hs E)|exact Hs].
Qed.
End Run.

Lemma Forall2_impl {A B} (P Q : A -> B -> Prop) a b : (forall x y, P x y -> Q x y) -> Forall2 P a b -> Forall2 Q a b.
Proof. intros H. induction 1; constructor; auto. Qed.
Lemma Forall2_diag {A} (P : A -> A -> Prop) a : (forall x, P x x) -> Forall2 P a a.
Proof. intros H. induction a; constructor; auto. Qed.
Lemma Forall2_trans {A} (P : A -> A -> Prop) a b c :
  (forall x y z, P x y -> P y z -> P x z) -> Forall2 P a b -> Forall2 P b c -> Forall2 P a c.
Proof. intros Ht H. revert c. induction H; intros c Hc; inversion Hc; subst; constructor; eauto. Qed.
Lemma Forall2_firstn {A B} (P : A -> B -> Prop) : forall n l1 l2, Forall2 P l1 l2 -> Forall2 P (firstn n l1) (firstn n l2).
Proof.
  induction n as [|n IH]; intros l1 l2 H; cbn [firstn]; [constructor|].
  destruct H as [|x y l1 l2 Hxy Hrest]; [constructor|]. constructor; [exact Hxy|apply IH; exact Hrest].
Qed.
Lemma combine_fst_snd {A B} (l : list (A * B)) : combine (map fst l) (map snd l) = l.
Proof. induction l as [|[a b] l IH]; cbn; [reflexivity|]. rewrite IH. reflexivity. Qed.
Lemma NoDup_app_single {A} (l : list A) x : NoDup l -> ~ In x l -> NoDup (l ++ [x]).
Proof. intros Hnd Hn. exact (Permutation_NoDup (Permutation_cons_append l x) (NoDup_cons x Hn Hnd)). Qed.
