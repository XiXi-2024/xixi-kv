(* EngineMergeRun.v — histories with merges: Merge keeps every key's value in the live database,
   across the restart that adopts the merged files and across every later restart (C06); a merge
   that reported an error is ignored by every later Open. *)
From Coq Require Import ZArith Lia ZifyN ZifyNat ZifyBool Sorting.Sorted.
From KV Require Import Bytes GenConsts Chunk Record Engine Script BytesLemmas AMapLemmas
  EngineFiles EngineOps EngineRefine EngineLog EngineRecover EngineCrash EngineOpen EngineAdopt EngineMerge EngineKeep.
Open Scope N_scope.

(* the records of the files with ids 0 .. n-1, in this order, each looked up by its id (an absent id gives none) *)
Definition lo_lookup (fs : list (N * lfile)) (n : nat) : list record :=
  concat (map (fun i => orecs fs (N.of_nat i)) (seq 0 n)).

Lemma lo_lookup_ext a b n : (forall x, x < N.of_nat n -> orecs a x = orecs b x) -> lo_lookup a n = lo_lookup b n.
Proof. intros H. unfold lo_lookup. f_equal. apply map_ext_in. intros i Hi. apply in_seq in Hi. apply H. lia. Qed.

Lemma below_succ fs n : asc fs ->
  below (n + 1) fs = below n fs ++ match older_get fs n with Some f => [(n, f)] | None => [] end.
Proof.
  induction fs as [|[i g] fs IH]; cbn [asc]; [reflexivity|]. intros [H1 H2]. cbn [below filter fst older_get].
  fold (below (n + 1) fs). fold (below n fs).
  destruct (N.lt_trichotomy i n) as [Hlt|[Heq|Hgt]].
  - destruct (i <? n + 1) eqn:E1; [|lia]. destruct (i <? n) eqn:E2; [|lia]. destruct (i =? n) eqn:E3; [lia|].
    cbn [app]. f_equal. apply IH. exact H2.
  - subst i. destruct (n <? n + 1) eqn:E1; [|lia]. destruct (n <? n) eqn:E2; [lia|]. rewrite N.eqb_refl.
    rewrite (below_above fs n (n + 1) H1), (below_above fs n n H1) by lia. reflexivity.
  - destruct (i <? n + 1) eqn:E1; [lia|]. destruct (i <? n) eqn:E2; [lia|]. destruct (i =? n) eqn:E3; [lia|].
    rewrite (below_above fs i (n + 1) H1), (below_above fs i n H1), (ids_above_none fs i n H1) by lia. reflexivity.
Qed.

Lemma below_lookup fs : asc fs -> forall n, files_log (below (N.of_nat n) fs) = lo_lookup fs n.
Proof.
  intros Ha. induction n as [|n IH].
  - cbn [N.of_nat]. rewrite below_zero. reflexivity.
  - replace (N.of_nat (S n)) with (N.of_nat n + 1) by lia. rewrite (below_succ fs _ Ha), files_log_app, IH.
    unfold lo_lookup. rewrite seq_S, map_app, concat_app. cbn [plus map concat]. rewrite app_nil_r. f_equal.
    unfold orecs. destruct (older_get fs (N.of_nat n)) as [f|]; [apply files_log_single|reflexivity].
Qed.

Lemma below_all o b : ids_below o b -> below b o = o.
Proof.
  induction o as [|[i g] o IH]; cbn [ids_below below filter fst]; [reflexivity|]. intros (H1 & _ & H3).
  destruct (i <? b) eqn:E; [|lia]. f_equal. apply IH. exact H3.
Qed.

Lemma lo_lookup_all d : InvO d -> lf_recs (d_active d) = [] -> lo_lookup (d_older d) (N.to_nat (d_active_id d)) = log d.
Proof.
  intros HO He. rewrite <- (below_lookup _ (ids_below_asc _ _ HO)), N2Nat.id, (below_all _ _ HO).
  unfold log, file_log. rewrite He. apply app_nil_end.
Qed.

Lemma plain_op_ok o : plain_op o -> op_ok o /\ no_restart o.
Proof. destruct o; cbn; auto. Qed.

Lemma db_close_gen d k M k' evs :
  LogInv d M -> db_close d k = (k', evs) ->
  asc (k_data k') /\ Forall file_ok (k_data k') /\ files_log (k_data k') = log d /\
  k_merge k' = k_merge k /\
  (forall mid x, mid <= d_active_id d -> x < mid -> orecs (k_data k') x = orecs (d_older d) x).
Proof.
  intros HL Hc. pose proof (db_close_fst d k) as E. rewrite Hc in E. cbn [fst] in E. subst k'. cbn [k_data k_merge k_hint].
  (* the data files Close leaves do not depend on the directory it is given: db_close_spec, which wants a directory
     without a merge, speaks of the same files *)
  destruct (db_close_spec d (mkDisk [] None None) M _ _ HL eq_refl (surjective_pairing _)) as ((_ & Hasc & Hok) & Hlog).
  rewrite db_close_fst in Hasc, Hok, Hlog.
  split; [exact Hasc|]. split; [exact Hok|]. split; [exact Hlog|]. split; [reflexivity|].
  intros mid x Hmid Hx. unfold orecs, db_files. rewrite older_get_map_files, older_get_set.
  destruct (x =? d_active_id d) eqn:Ex; [lia|]. destruct (older_get (d_older d) x); reflexivity.
Qed.

Definition ignored (md : mdir) : Prop := m_marker md = None \/ m_marker md = Some 0.

(* A merge directory is ignored, or holds a finished merge: then
   mid: the marker, the id of the first file that took no part in the merge;
   M0:  the mapping the rewritten files denote;
   OL:  the records of the data files below mid, the input of the merge, unchanged since;
   PL:  the records written since, in the files from mid on; replayed over M0 they give M. *)
Definition MergeState (d : db) (k : disk) (M : smap) : Prop :=
  match k_merge k with
  | None => True
  | Some md =>
    ignored md \/
    exists mid M0 OL PL, merge_dir_ok md mid M0 /\ 0 < mid /\ mid <= d_active_id d /\
      log d = OL ++ PL /\ lo_lookup (d_older d) (N.to_nat mid) = OL /\ sreplay M0 [] PL = (M, [])
  end.

(* G, the global invariant of a history with merges: the open database and the merge directory together denote M *)
Definition G (d : db) (k : disk) (M : smap) : Prop := LogInv d M /\ MergeState d k M.

Definition merge_result (d : db) (order : list N) : option eerr :=
  snd (fst (db_merge d (mkDisk [] None None) order)).
(* side conditions of an operation: batch ids are non-zero; the scan order of a Merge that succeeds
   covers every data file (a Merge that is abandoned with an error stops scanning early) *)
Definition gop_ok (d : db) (o : op) : Prop :=
  match o with
  | OpMerge order => merge_result d order = None -> order_ok d order
  | OpBatch _ id _ => id <> 0
  | _ => True
  end.

Lemma db_merge_result d k order : snd (fst (db_merge d k order)) = merge_result d order.
Proof.
  unfold merge_result, db_merge. destruct (db_rotate d) as [d1 ev1].
  destruct (h_open _ _ _ _) as [a0 ev3]. destruct (hf_open_new _) as [h0 ev4].
  destruct (merge_files _ _ _ _ _) as [[d2 res] ev5]. destruct res as [m|er m]; [|reflexivity].
  destruct (hf_close _ _) as [h1 ev6]. destruct (h_close _ _ _) as [a1 ev7]. destruct (ms_close_older _ _) as [o1 ev8].
  reflexivity.
Qed.

Lemma MergeState_none d k M : k_merge k = None -> MergeState d k M.
Proof. intros H. unfold MergeState. rewrite H. exact I. Qed.
Lemma MergeState_ignored d k M md : k_merge k = Some md -> ignored md -> MergeState d k M.
Proof. intros H Hig. unfold MergeState. rewrite H. left. exact Hig. Qed.
Lemma MergeState_finished d k M md : k_merge k = Some md -> InvO d -> lf_recs (d_active d) = [] -> 0 < d_active_id d ->
  merge_dir_ok md (d_active_id d) M -> MergeState d k M.
Proof.
  intros H HO He Hpos Hmd. unfold MergeState. rewrite H. right. exists (d_active_id d), M, (log d), [].
  split; [exact Hmd|]. split; [exact Hpos|]. split; [apply N.le_refl|]. split; [apply app_nil_end|].
  split; [exact (lo_lookup_all d HO He)|reflexivity].
Qed.
Lemma MergeState_transport d k M d' M' X :
  MergeState d k M -> Keep d d' -> log d' = log d ++ X -> sreplay M [] X = (M', []) -> MergeState d' k M'.
Proof.
  unfold MergeState. destruct (k_merge k) as [md|]; [|auto].
  intros [Hig|(mid & M0 & OL & PL & Hmd & Hpos & Hle & Hlog & Hlo & Hsr)] HK HX Hat; [left; exact Hig|right].
  destruct (Keep_orecs mid d d' HK Hle) as [Hle' Hor].
  exists mid, M0, OL, (PL ++ X). split; [exact Hmd|]. split; [exact Hpos|]. split; [exact Hle'|].
  split; [rewrite HX, Hlog, app_assoc; reflexivity|]. split.
  - rewrite <- Hlo. apply lo_lookup_ext. intros x Hx. apply Hor. lia.
  - rewrite sreplay_app, Hsr. exact Hat.
Qed.

Lemma G_sync d k M d' evs : db_sync d = (d', evs) -> G d k M -> G d' k M.
Proof.
  intros Hs [HL HM]. split; [exact (db_sync_log _ _ _ _ HL Hs)|]. rewrite db_sync_eq in Hs. injection Hs as <- _. exact HM.
Qed.

Lemma G_plain d k M o d' k' r evs :
  G d k M -> plain_op o -> step (d, k) o = ((d', k'), r, evs) ->
  G d' k' (fst (sstep M o)) /\ proj r = proj (snd (sstep M o)).
Proof.
  intros [HL HM] Hp Hst. destruct (step_keep d k o d' k' r evs Hp Hst) as [HK ->]. destruct (plain_op_ok o Hp) as [Hok Hnr].
  destruct (step_log_live d k M o d' k r evs HL Hok Hnr Hst) as (HL' & _ & Hpr).
  destruct (step_chunk d k M o d' k r evs HL (or_introl Hnr) Hok Hst) as (X & HX & [_ Hat]).
  split; [split; [exact HL'|exact (MergeState_transport d k M d' _ X HM HK HX Hat)]|exact Hpr].
Qed.

Lemma G_merge d k M order d' k' r evs :
  G d k M -> (merge_result d order = None -> order_ok d order) -> step (d, k) (OpMerge order) = ((d', k'), r, evs) ->
  G d' k' M /\ proj r = RMerge None.
Proof.
  intros [HL HM] Hord Hst. cbn [step] in Hst.
  pose proof (db_merge_result d k order) as Hres.
  destruct (db_merge d k order) as [[[d1 k1] e] ev] eqn:Hm. injection Hst as <- <- <- _. cbn [fst snd] in Hres.
  destruct (db_merge_out d k M order d1 k1 e ev HL ltac:(intros ->; apply Hord; symmetry; exact Hres) Hm)
    as (HL' & _ & Haid & Hemp & He).
  split; [split; [exact HL'|]|reflexivity].
  destruct e as [er|]; destruct He as (md & Hk1 & Hmd).
  - exact (MergeState_ignored d1 k1 M md Hk1 (or_introl Hmd)).
  - destruct HL' as [(_ & HO1 & _) _]. apply (MergeState_finished d1 k1 M md Hk1 HO1 Hemp); [lia|exact Hmd].
Qed.

Lemma plain_batch0 L : Forall (fun rp : record * pos => plain_live (fst rp)) L -> Forall (fun r => r_batch r = 0) (map fst L).
Proof. intros H. rewrite Forall_map. eapply Forall_impl; [|exact H]. intros rp [Hb _]. exact Hb. Qed.

Lemma open_pending c k md mid n j h MFull M0 PL M :
  k_merge k = Some md -> m_marker md = Some mid -> 0 < mid -> 0 < n -> n <= mid -> j <= n ->
  merged_ok MFull n -> m_files md = from_ j MFull ->
  asc (k_data k) -> Forall file_ok (k_data k) ->
  (forall x, x < j -> older_get (k_data k) x = older_get MFull x) ->
  (0 < j -> forall x, n <= x -> x < mid -> older_get (k_data k) x = None) ->
  (m_hint md = Some h \/ (m_hint md = None /\ k_hint k = Some h /\ j = n)) ->
  hf_recs h = hint_of (recs_of MFull) -> Forall (fun rp => plain_live (fst rp)) (recs_of MFull) ->
  s_apply_recs [] (files_log MFull) = M0 ->
  files_log (from_ mid (k_data k)) = PL -> sreplay M0 [] PL = (M, []) ->
  exists d' k' evs, db_open c k = (OpenOk d' k', evs) /\ LogInv d' M /\ k_merge k' = None /\
    log d' = files_log MFull ++ PL /\ d_cfg d' = c.
Proof.
  intros Hm Hmk Hpos Hn0 Hn Hj Hmok Hmf Hasc Hok Hinst Hrem Hhloc Hhint Hpl Hden HPL Hsr.
  destruct (load_merge_resume k md mid n j h MFull Hm Hmk Hpos Hn0 Hn Hj Hmok Hmf Hasc Hok Hinst Hrem Hhloc)
    as (data2 & ev & Hload & A2 & B2 & Hbel & Hfrom & Hpart).
  destruct (db_open_general c k (mkDisk data2 (Some h) None) mid ev Hload A2 B2) as (d1 & k2 & ev2 & Ho & HLO & Hlog' & Hcfg & Hk2).
  { right. split; [exact Hpos|]. exists h, n. cbn [k_hint k_data]. rewrite Hbel. auto. }
  cbn [k_data k_merge] in *.
  assert (Hfl : files_log data2 = files_log MFull ++ PL).
  { rewrite (split_at data2 n mid A2 Hn Hpart) at 1. rewrite files_log_app, Hbel, Hfrom, HPL. reflexivity. }
  assert (Hsem : sreplay [] [] (files_log data2) = (M, [])).
  { rewrite Hfl, sreplay_app, files_log_recs, (sreplay_plain _ [] [] (plain_batch0 _ Hpl)). cbn [fst snd].
    rewrite <- files_log_recs, Hden. exact Hsr. }
  rewrite Hsem in HLO. cbn [fst] in HLO.
  exists d1, k2, ev2. split; [exact Ho|]. split; [split; [exact HLO|rewrite Hlog', Hsem; reflexivity]|].
  split; [exact Hk2|]. split; [rewrite Hlog', Hfl; reflexivity|exact Hcfg].
Qed.

Lemma open_finished c d M md hint data mid M0 OL PL :
  merge_dir_ok md mid M0 -> 0 < mid ->
  log d = OL ++ PL -> lo_lookup (d_older d) (N.to_nat mid) = OL -> sreplay M0 [] PL = (M, []) ->
  asc data -> Forall file_ok data -> files_log data = log d ->
  (forall x, x < mid -> orecs data x = orecs (d_older d) x) ->
  exists d' k' evs, db_open c (mkDisk data hint (Some md)) = (OpenOk d' k', evs) /\ LogInv d' M /\ k_merge k' = None.
Proof.
  intros (n & h & Hmk & Hh & Hn0 & Hn & Hmok & Hhint & Hpl & Hden) Hpos Hlogd Hlo Hsr Hasc Hok Hlog Hor.
  assert (HPL : files_log (from_ mid data) = PL).
  { rewrite (split_at data mid mid Hasc ltac:(lia) ltac:(intros; lia)), files_log_app, Hlogd in Hlog.
    rewrite <- (N2Nat.id mid) in Hlog at 1. rewrite (below_lookup _ Hasc), (lo_lookup_ext data (d_older d)), Hlo in Hlog.
    - exact (app_inv_head _ _ _ Hlog).
    - intros x Hx. apply Hor. lia. }
  destruct (open_pending c (mkDisk data hint (Some md)) md mid n 0 h (m_files md) M0 PL M eq_refl Hmk Hpos Hn0 Hn ltac:(lia) Hmok
              ltac:(rewrite from_zero; reflexivity) Hasc Hok ltac:(intros; lia) ltac:(intros; lia) (or_introl Hh)
              Hhint Hpl Hden HPL Hsr) as (d1 & k2 & ev2 & Ho & HL1 & Hk2 & _).
  exists d1, k2, ev2. auto.
Qed.

Lemma load_merge_files_ignored k md : k_merge k = Some md -> ignored md ->
  exists ev, load_merge_files k = (mkDisk (k_data k) (k_hint k) (Some (mkMdir (m_files md) (m_hint md) (Some 0))), 0, ev).
Proof. intros Hm Hig. unfold load_merge_files. rewrite Hm. destruct Hig as [-> | ->]; eexists; reflexivity. Qed.

Lemma G_restart d k M c d' k' r evs :
  G d k M -> step (d, k) (OpRestart c) = ((d', k'), r, evs) -> G d' k' M /\ r = RErr None.
Proof.
  intros [HL HM] Hst. cbn [step] in Hst.
  destruct (db_close d k) as [k1 ev1] eqn:Hc.
  destruct (db_close_gen d k M k1 ev1 HL Hc) as (Hasc & Hok & Hlog & Hm1 & Hor).
  unfold MergeState in HM. destruct (k_merge k) as [md|] eqn:Ekm.
  2: { destruct (restart_spec d k M c k1 ev1 HL Ekm Hc) as (d1 & k2 & ev2 & Ho & HL1 & Hnm2 & _).
       rewrite Ho in Hst. injection Hst as <- <- <- _.
       split; [split; [exact HL1|exact (MergeState_none d1 k2 M Hnm2)]|reflexivity]. }
  destruct HM as [Hig|(mid & M0 & OL & PL & Hmd & Hpos & Hle & Hlogd & Hlo & Hsr)].
  - (* an unfinished merge: ignored, the directory stays *)
    destruct (load_merge_files_ignored k1 md Hm1 Hig) as [ev Hload].
    destruct (db_open_general c k1 _ 0 ev Hload Hasc Hok (or_introl eq_refl)) as (d1 & k2 & ev2 & Ho & HLO & Hlog' & Hcfg & Hk2).
    rewrite Ho in Hst. injection Hst as <- <- <- _. cbn [k_data k_merge] in *.
    rewrite Hlog in HLO, Hlog'. rewrite (LogInv_sreplay d M HL) in HLO.
    split; [split; [split; [exact HLO|rewrite Hlog', (LogInv_sreplay d M HL); reflexivity]|]|reflexivity].
    exact (MergeState_ignored d1 k2 M _ Hk2 (or_intror eq_refl)).
  - (* a finished merge: adopted *)
    destruct k1 as [data1 hint1 merge1]. cbn [k_data k_merge k_hint] in *. subst merge1.
    destruct (open_finished c d M md hint1 data1 mid M0 OL PL Hmd Hpos Hlogd Hlo Hsr Hasc Hok Hlog
                ltac:(intros x Hx; exact (Hor mid x Hle Hx))) as (d1 & k2 & ev2 & Ho & HL1 & Hk2).
    rewrite Ho in Hst. injection Hst as <- <- <- _.
    split; [split; [exact HL1|exact (MergeState_none d1 k2 M Hk2)]|reflexivity].
Qed.

Theorem step_G d k M o d' k' r evs :
  G d k M -> gop_ok d o -> step (d, k) o = ((d', k'), r, evs) ->
  G d' k' (fst (sstep M o)) /\ proj r = proj (snd (sstep M o)).
Proof.
  intros HG Hok Hst. destruct o as [key v|key|key| | | | |sync id bops|order|c].
  (* the eight plain operations: for them gop_ok d o is, by computation, plain_op o *)
  1-8: (apply (G_plain d k M _ d' k' r evs HG); [exact Hok|exact Hst]).
  - exact (G_merge d k M order d' k' r evs HG Hok Hst).
  - destruct (G_restart d k M c d' k' r evs HG Hst) as [H1 ->]. split; [exact H1|reflexivity].
Qed.

Fixpoint ops_ok (s : state) (ops : list op) : Prop :=
  match ops with
  | [] => True
  | o :: rest => gop_ok (fst s) o /\ ops_ok (fst (fst (step s o))) rest
  end.

Theorem run_G : forall ops d k M s' rs evs,
  G d k M -> ops_ok (d, k) ops -> run (d, k) ops = (s', rs, evs) ->
  map proj rs = map proj (srun M ops) /\ G (fst s') (snd s') (final_state M ops).
Proof.
  induction ops as [|o ops IH]; intros d k M s' rs evs HG Hok Hrun; cbn [run srun final_state fold_left] in *.
  - injection Hrun as <- <- <-. split; [reflexivity|exact HG].
  - destruct Hok as [Ho Hrest].
    destruct (step (d, k) o) as [[[d1 k1] r] ev1] eqn:Hst. cbn [fst] in Hrest.
    destruct (run (d1, k1) ops) as [[s2 rs2] ev2] eqn:Hr2. injection Hrun as <- <- <-.
    destruct (step_G _ _ _ _ _ _ _ _ HG Ho Hst) as (HG1 & Hpr).
    destruct (sstep M o) as [m1 r1]. cbn [fst snd] in *.
    destruct (IH _ _ _ _ _ _ HG1 Hrest Hr2) as (Hrs & HG2).
    cbn [map]. rewrite Hpr, Hrs. auto.
Qed.

Lemma open_empty_G c d k evs : db_open c empty_disk = (OpenOk d k, evs) -> G d k [].
Proof. intros Ho. destruct (open_empty_log c d k evs Ho) as [HL Hnm]. exact (conj HL (MergeState_none d k [] Hnm)). Qed.
