(* LockProofs.v — at most one open database per directory (C16). *)
From Coq Require Import List NArith Bool Lia.
From KV Require Import LockTable.
Import ListNotations.
Open Scope N_scope.

Definition LInv (t : ltable) : Prop := NoDup (map fst t).

Lemma holder_in t dir h : holder t dir = Some h -> In (dir, h) t.
Proof.
  induction t as [|[d h'] t IH]; cbn [holder]; [discriminate|]. destruct (d =? dir) eqn:E.
  - intros [= ->]. apply N.eqb_eq in E. subst. left. reflexivity.
  - intros H. right. auto.
Qed.
Lemma holder_none t dir : holder t dir = None <-> ~ In dir (map fst t).
Proof.
  induction t as [|[d h'] t IH]; cbn [holder map fst]; [split; [intros _ []|reflexivity]|].
  destruct (d =? dir) eqn:E.
  - apply N.eqb_eq in E. subst. split; [discriminate|intros H; exfalso; apply H; left; reflexivity].
  - apply N.eqb_neq in E. rewrite IH. split; [intros H [H1|H1]; [congruence|auto]|intros H H1; apply H; right; exact H1].
Qed.

Lemma in_release t h x : In x (release t h) <-> In x t /\ snd x <> h.
Proof.
  induction t as [|[d h'] t IH]; cbn [release In]; [tauto|]. destruct (N.eqb_spec h' h) as [->|Hne]; cbn [In]; rewrite IH.
  - split; [intros [A B]; auto|]. intros [[<-|A] B]; [exfalso; apply B; reflexivity|auto].
  - split; [intros [<-|[A B]]; auto|]. intros [[<-|A] B]; auto.
Qed.
Lemma release_inv t h : LInv t -> LInv (release t h).
Proof.
  unfold LInv. induction t as [|[d h'] t IH]; cbn [release map fst]; [auto|]. intros H. inversion H; subst.
  destruct (h' =? h); [auto|]. cbn [map fst]. constructor; [|auto].
  intros Hin. apply H2. apply in_map_iff in Hin. destruct Hin as ([d2 h2] & Hd & Hx). cbn [fst] in Hd. subst d2.
  apply in_release in Hx. apply in_map_iff. exists (d, h2). tauto.
Qed.
Lemma holder_release t h dir : LInv t ->
  holder (release t h) dir = match holder t dir with Some h' => if h' =? h then None else Some h' | None => None end.
Proof.
  unfold LInv. induction t as [|[d h0] t IH]; cbn [release holder map fst]; intros Hnd; [reflexivity|].
  inversion Hnd as [|? ? Hd Ht]; subst. specialize (IH Ht). destruct (d =? dir) eqn:E.
  - apply N.eqb_eq in E. subst d. apply holder_none in Hd. rewrite Hd in IH.
    destruct (h0 =? h); [exact IH|]. cbn [holder]. rewrite N.eqb_refl. reflexivity.
  - destruct (h0 =? h); [exact IH|]. cbn [holder]. rewrite E. exact IH.
Qed.

Lemma fst_unique (t : ltable) dir a b : NoDup (map fst t) -> In (dir, a) t -> In (dir, b) t -> a = b.
Proof.
  induction t as [|[d0 h0] t IH]; intros Hnd Ha Hb; [destruct Ha|]. cbn [map fst] in Hnd. inversion Hnd as [|? ? Hnotin Hrest]; subst.
  destruct Ha as [Ea|Ha]; destruct Hb as [Eb|Hb].
  - congruence.
  - injection Ea as -> ->. exfalso. apply Hnotin. apply in_map_iff. exists (dir, b). auto.
  - injection Eb as -> ->. exfalso. apply Hnotin. apply in_map_iff. exists (dir, a). auto.
  - auto.
Qed.

Theorem lstep_inv t o t' r : LInv t -> lstep t o = (t', r) -> LInv t'.
Proof.
  intros HI. destruct o as [h dir fails|h]; cbn [lstep].
  - destruct (holder t dir) eqn:Eh; [intros [= <- _]; exact HI|]. destruct fails; intros [= <- _]; [exact HI|].
    unfold LInv. cbn [map fst]. constructor; [apply holder_none; exact Eh|exact HI].
  - destruct (holds t h); intros [= <- _]; [apply release_inv; exact HI|exact HI].
Qed.

Theorem lrun_inv : forall ops t t' rs, LInv t -> lrun t ops = (t', rs) -> LInv t'.
Proof.
  induction ops as [|o ops IH]; intros t t' rs HI H; cbn [lrun] in H; [injection H as <- _; exact HI|].
  destruct (lstep t o) as [t1 x] eqn:E1. destruct (lrun t1 ops) as [t2 xs] eqn:E2. injection H as <- _.
  exact (IH _ _ _ (lstep_inv _ _ _ _ HI E1) E2).
Qed.

(* While a directory is held every attempt to open it fails with "in use" and changes nothing; an
   attempt on a free directory takes the lock, or - when initialisation fails - leaves it free *)
Theorem open_outcomes t h dir fails :
  match holder t dir with
  | Some _ => lstep t (LOpen h dir fails) = (t, LInUse)
  | None => if fails then lstep t (LOpen h dir fails) = (t, LFailed)
            else lstep t (LOpen h dir fails) = ((dir, h) :: t, LOk) /\ holder ((dir, h) :: t) dir = Some h
  end.
Proof.
  cbn [lstep]. destruct (holder t dir) eqn:E; [reflexivity|]. destruct fails; [reflexivity|].
  split; [reflexivity|]. cbn [holder]. rewrite N.eqb_refl. reflexivity.
Qed.

(* Close releases: the directories the handle held are free again, nobody else's lock is touched *)
Theorem close_releases t h dir :
  LInv t -> holds t h = true ->
  lstep t (LClose h) = (release t h, LOk) /\
  (holder t dir = Some h -> holder (release t h) dir = None) /\
  (forall h', h' <> h -> holder t dir = Some h' -> holder (release t h) dir = Some h').
Proof.
  intros HI Hh. cbn [lstep]. rewrite Hh, (holder_release t h dir HI). split; [reflexivity|]. split.
  - intros ->. rewrite N.eqb_refl. reflexivity.
  - intros h' Hne ->. destruct (N.eqb_spec h' h); [contradiction|reflexivity].
Qed.

Theorem at_most_one_holder ops t rs dir h1 h2 :
  lrun [] ops = (t, rs) -> In (dir, h1) t -> In (dir, h2) t -> h1 = h2.
Proof.
  intros Hr Ha Hb. assert (HI : LInv t) by (apply (lrun_inv ops [] t rs); [unfold LInv; cbn; apply NoDup_nil|exact Hr]). exact (fst_unique t dir h1 h2 HI Ha Hb).
Qed.
