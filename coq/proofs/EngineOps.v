(* EngineOps.v — what each operation of the engine does to the database, stated once and without any
   invariant: every operation is a composition of a few primitives (rotate, append, index update,
   read through a handle, sync), and three relations say what the primitives can change: touched (reads),
   index_only (index updates), both defined here, and grows (rotation and appends, EngineLog).  The files
   that follow prove, for each invariant, that it survives each relation and each primitive. *)
From Coq Require Import ZArith Lia ZifyN ZifyNat ZifyBool.
From KV Require Import Bytes GenConsts Chunk Record Engine Script EngineFiles.
Open Scope N_scope.

(* ---- reads: only the extent of some files changes ---------------------------------------------- *)
(* o' is o after reads through the handles of some of its files *)
Inductive files_touched (io : N) : list (N * lfile) -> list (N * lfile) -> Prop :=
| ft_refl o : files_touched io o o
| ft_step o fid f f' o' :
    older_get o fid = Some f -> remapped io f f' -> files_touched io (older_set o fid f') o' ->
    files_touched io o o'.

Lemma files_touched_trans io a b c : files_touched io a b -> files_touched io b c -> files_touched io a c.
Proof. induction 1 as [|o fid f f' o' Hg Hr _ IH]; [auto|]. intros H. exact (ft_step io o fid f f' c Hg Hr (IH H)). Qed.
Lemma files_touched_one io o fid f f' :
  older_get o fid = Some f -> remapped io f f' -> files_touched io o (older_set o fid f').
Proof. intros Hg Hr. exact (ft_step io o fid f f' _ Hg Hr (ft_refl io _)). Qed.

Lemma files_touched_in io o o' : files_touched io o o' ->
  forall id f', In (id, f') o' -> exists f, In (id, f) o /\ remapped io f f'.
Proof.
  induction 1 as [o|o fid f f' o' Hg Hr _ IH]; intros id g Hin; [exists g; split; [exact Hin|apply remapped_refl]|].
  destruct (IH id g Hin) as (g0 & Hin0 & Hr0).
  destruct (in_older_set _ _ _ _ Hin0) as [[= -> ->]|Hin1]; [|eauto].
  exists f. split; [apply older_get_some_in; exact Hg|eapply remapped_trans; eassumption].
Qed.
Lemma files_touched_get io o o' : files_touched io o o' ->
  forall id, match older_get o id, older_get o' id with
             | Some f, Some f' => remapped io f f'
             | None, None => True
             | _, _ => False
             end.
Proof.
  induction 1 as [o|o fid f f' o' Hg Hr _ IH]; intros id.
  - destruct (older_get o id); [apply remapped_refl|exact I].
  - specialize (IH id). rewrite older_get_set in IH. destruct (id =? fid) eqn:E; [|exact IH].
    assert (id = fid) by lia. subst id. rewrite Hg. destruct (older_get o' fid); [|exact IH].
    eapply remapped_trans; eassumption.
Qed.
Lemma files_touched_Forall io (P : N * lfile -> Prop) o o' :
  (forall id f f', remapped io f f' -> P (id, f) -> P (id, f')) ->
  files_touched io o o' -> Forall P o -> Forall P o'.
Proof.
  intros HP Ht Ho. apply Forall_forall. intros [id f'] Hin.
  destruct (files_touched_in io o o' Ht id f' Hin) as (f & Hin0 & Hr).
  rewrite Forall_forall in Ho. exact (HP id f f' Hr (Ho _ Hin0)).
Qed.

(* io says how the files were read: the database's own I/O type, except in merge_files_touched_by, where the
   scan reads with the I/O type of the configuration it is given *)
Definition touched_by (io : N) (d d' : db) : Prop :=
  exists a o, remapped io (d_active d) a /\ files_touched io (d_older d) o /\
    d' = mkDb (d_cfg d) (d_active_id d) a o (d_index d) (d_bytes_write d) (d_total d) (d_reclaim d).
Definition touched (d d' : db) : Prop := touched_by (io_of d) d d'.

Lemma touched_by_refl io d : touched_by io d d.
Proof. exists (d_active d), (d_older d). split; [apply remapped_refl|]. split; [apply ft_refl|]. destruct d; reflexivity. Qed.
Lemma touched_by_trans io a b c : touched_by io a b -> touched_by io b c -> touched_by io a c.
Proof.
  intros (x & o & Hx & Ho & ->) (y & o' & Hy & Ho' & ->). cbn [d_cfg d_active d_older] in *.
  exists y, o'. split; [eapply remapped_trans; eassumption|]. split; [eapply files_touched_trans; eassumption|reflexivity].
Qed.
Lemma touched_by_older io d fid f f' : older_get (d_older d) fid = Some f -> remapped io f f' ->
  touched_by io d (set_older d (older_set (d_older d) fid f')).
Proof.
  intros Hg Hr. exists (d_active d), (older_set (d_older d) fid f').
  split; [apply remapped_refl|]. split; [exact (files_touched_one _ _ fid f f' Hg Hr)|reflexivity].
Qed.

Lemma touched_refl d : touched d d.
Proof. apply touched_by_refl. Qed.
Lemma touched_trans a b c : touched a b -> touched b c -> touched a c.
Proof. unfold touched. intros H1 H2. apply (touched_by_trans _ a b c H1). destruct H1 as (x & o & _ & _ & ->). exact H2. Qed.
Lemma touched_active d a : remapped (io_of d) (d_active d) a -> touched d (set_active d (d_active_id d) a).
Proof. intros H. exists a, (d_older d). split; [exact H|]. split; [apply ft_refl|reflexivity]. Qed.
Lemma touched_older d fid f f' : older_get (d_older d) fid = Some f -> remapped (io_of d) f f' ->
  touched d (set_older d (older_set (d_older d) fid f')).
Proof. apply touched_by_older. Qed.

(* ---- index updates: only the index and the two size counters change -------------------------------- *)
Definition index_only (d d' : db) : Prop :=
  exists ix tot rc, d' = mkDb (d_cfg d) (d_active_id d) (d_active d) (d_older d) ix (d_bytes_write d) tot rc.

Lemma index_only_refl d : index_only d d.
Proof. exists (d_index d), (d_total d), (d_reclaim d). destruct d; reflexivity. Qed.
Lemma index_only_trans a b c : index_only a b -> index_only b c -> index_only a c.
Proof. intros (ix & t & r & ->) (ix' & t' & r' & ->). exists ix', t', r'. reflexivity. Qed.

(* the index update for the record r written at p, with its share of the reclaimable size *)
Definition idx_upd (d : db) (r : record) (p : pos) : db :=
  if r_type r =? rt_Deleted then
    let '(ix, old) := idx_del (d_index d) (r_key r) in
    add_reclaim (add_reclaim (set_index d ix) (p_size p)) (opt_size old)
  else
    let '(ix, old) := idx_put (d_index d) (r_key r) p in
    add_reclaim (set_index d ix) (opt_size old).

Lemma idx_upd_index_only d r p : index_only d (idx_upd d r p).
Proof.
  unfold idx_upd. destruct (r_type r =? rt_Deleted).
  - destruct (idx_del (d_index d) (r_key r)) as [ix old]. eexists _, _, _. reflexivity.
  - destruct (idx_put (d_index d) (r_key r) p) as [ix old]. eexists _, _, _. reflexivity.
Qed.
Lemma idx_upd_index d r p :
  d_index (idx_upd d r p) =
    if r_type r =? rt_Deleted then fst (amap_del (d_index d) (r_key r)) else fst (amap_put (d_index d) (r_key r) p).
Proof.
  unfold idx_upd, idx_del, idx_put. destruct (r_type r =? rt_Deleted).
  - destruct (amap_del (d_index d) (r_key r)) as [ix old]. reflexivity.
  - destruct (amap_put (d_index d) (r_key r) p) as [ix old]. reflexivity.
Qed.

Lemma update_index_idx_upd d r p :
  update_index d (r_key r) (r_type r) p =
    set_counters (idx_upd d r p) (d_bytes_write d) (d_total d + p_size p) (d_reclaim (idx_upd d r p)).
Proof.
  unfold update_index, idx_upd, idx_del, idx_put. cbn [set_counters d_index].
  destruct (r_type r =? rt_Deleted).
  - destruct (amap_del (d_index d) (r_key r)) as [ix old]. reflexivity.
  - destruct (amap_put (d_index d) (r_key r) p) as [ix old]. reflexivity.
Qed.
Lemma apply_staged_cons_idx_upd d r p rest :
  apply_staged d ((r, p) :: rest) =
    apply_staged (set_counters (idx_upd d r p) (d_bytes_write d) (d_total d + p_size p) (d_reclaim (idx_upd d r p))) rest.
Proof.
  cbn [apply_staged]. unfold idx_upd. destruct (r_type r =? rt_Deleted).
  - destruct (idx_del (d_index d) (r_key r)) as [ix old]. reflexivity.
  - destruct (idx_put (d_index d) (r_key r) p) as [ix old]. reflexivity.
Qed.

Lemma update_index_index_only d k ty p : index_only d (update_index d k ty p).
Proof.
  unfold update_index. destruct (ty =? rt_Deleted).
  - destruct (idx_del _ k) as [ix old]. eexists _, _, _. reflexivity.
  - destruct (idx_put _ k p) as [ix old]. eexists _, _, _. reflexivity.
Qed.
Lemma apply_staged_index_only : forall l d, index_only d (apply_staged d l).
Proof.
  induction l as [|[r p] l IH]; intros d; [apply index_only_refl|]. rewrite apply_staged_cons_idx_upd.
  eapply index_only_trans; [|apply IH]. destruct (idx_upd_index_only d r p) as (ix & t & rc & ->).
  eexists _, _, _. reflexivity.
Qed.
Lemma fold_update_index_only : forall (l : list (record * pos)) d,
  index_only d (fold_left (fun acc e => update_index acc (r_key (fst e)) (r_type (fst e)) (snd e)) l d).
Proof.
  induction l as [|e l IH]; intros d; cbn [fold_left]; [apply index_only_refl|].
  eapply index_only_trans; [apply update_index_index_only|apply IH].
Qed.
Lemma replay_recs_index_only : forall rs d t, index_only d (fst (replay_recs d t rs)).
Proof.
  induction rs as [|[r p] rs IH]; intros d t; cbn [replay_recs]; [apply index_only_refl|].
  destruct (r_batch r =? 0); [eapply index_only_trans; [apply update_index_index_only|apply IH]|].
  destruct (r_type r =? rt_BatchFinished); [|apply IH].
  eapply index_only_trans; [apply fold_update_index_only|apply IH].
Qed.
Lemma replay_files_index_only : forall files d t from, index_only d (fst (replay_files d t files from)).
Proof.
  induction files as [|[id f] files IH]; intros d t from; cbn [replay_files]; [apply index_only_refl|].
  destruct (id <? from); [apply IH|].
  pose proof (replay_recs_index_only (lf_recs f) d t) as H. destruct (replay_recs d t (lf_recs f)) as [d1 t1].
  eapply index_only_trans; [exact H|apply IH].
Qed.
Lemma load_hint_index_only : forall h d n, index_only d (fst (load_hint d h n)).
Proof.
  induction h as [|[k p] h IH]; intros d n; cbn [load_hint]; [apply index_only_refl|].
  destruct (idx_put (d_index d) k p) as [ix old]. eapply index_only_trans; [|apply IH]. eexists _, _, _. reflexivity.
Qed.

Definition rotated (d : db) : db :=
  mkDb (d_cfg d) (d_active_id d + 1) (opened (io_of d) lf_empty)
       (older_set (d_older d) (d_active_id d) (synced (d_active d))) (d_index d) 0 (d_total d) (d_reclaim d).

Lemma db_rotate_fst d : fst (db_rotate d) = rotated d.
Proof.
  unfold db_rotate, rotated. rewrite h_sync_eq, <- (h_open_fst (io_of d) (FData (d_active_id d + 1)) false lf_empty).
  destruct (h_open (io_of d) (FData (d_active_id d + 1)) false lf_empty). reflexivity.
Qed.
Lemma db_rotate_inv d d' evs : db_rotate d = (d', evs) -> d' = rotated d.
Proof. intros H. rewrite <- db_rotate_fst, H. reflexivity. Qed.

Lemma maybe_rotate_ind (P : db -> Prop) (c : bool) d d1 ev :
  (if c then db_rotate d else (d, [])) = (d1, ev) ->
  P d -> (forall d' e, db_rotate d = (d', e) -> P d') -> P d1.
Proof. destruct c; [intros H _ Hr; exact (Hr _ _ H)|intros [= <- _] H _; exact H]. Qed.

Definition sync_due (c : cfg) (bw : N) : bool :=
  (c_sync c =? sync_Always) || ((c_sync c =? sync_Threshold) && (c_bps c <=? bw)).

Lemma db_append_shape d r d' p evs : db_append d r = (d', p, evs) ->
  exists d1 ev1 a ev2,
    (if c_fsize (d_cfg d) <? lf_size (d_active d) + disk_size_estimate (len (r_key r)) (len (r_value r))
     then db_rotate d else (d, [])) = (d1, ev1) /\
    lf_append (io_of d1) (FData (d_active_id d1)) (d_active_id d1) (d_active d1) r = (a, p, ev2) /\
    let bw := d_bytes_write d1 + p_size p in
    let s := sync_due (d_cfg d1) bw in
    d' = mkDb (d_cfg d1) (d_active_id d1) (if s then synced a else a) (d_older d1) (d_index d1)
              (if s then 0 else bw) (d_total d1 + p_size p) (d_reclaim d1).
Proof.
  unfold db_append. intros H.
  destruct (if c_fsize (d_cfg d) <? _ then db_rotate d else (d, [])) as [d1 ev1] eqn:Hrot.
  destruct (lf_append (io_of d1) (FData (d_active_id d1)) (d_active_id d1) (d_active d1) r) as [[a p0] ev2] eqn:Hla.
  exists d1, ev1, a, ev2. fold (sync_due (d_cfg d1) (d_bytes_write d1 + p_size p0)) in H.
  destruct (sync_due (d_cfg d1) (d_bytes_write d1 + p_size p0)) eqn:Es; injection H as <- <- _;
    (split; [reflexivity|]; split; [exact Hla|]; cbv zeta; rewrite Es; reflexivity).
Qed.

Lemma db_put_cases d k v d' e evs : db_put d k v = (d', e, evs) ->
  ((len k =? 0) = true /\ d' = d /\ e = Some EKeyIsEmpty /\ evs = []) \/
  ((len k =? 0) = false /\ e = None /\
   exists d1 p, db_append d (mkRec rt_Normal k v 0) = (d1, p, evs) /\ d' = idx_upd d1 (mkRec rt_Normal k v 0) p).
Proof.
  unfold db_put. destruct (len k =? 0); [intros [= <- <- <-]; left; auto|]. intros H. right.
  destruct (db_append d (mkRec rt_Normal k v 0)) as [[d1 p] ev1].
  assert (Hd : d' = idx_upd d1 (mkRec rt_Normal k v 0) p /\ e = None /\ evs = ev1).
  { unfold idx_upd. cbn [r_type r_key]. change (rt_Normal =? rt_Deleted) with false. cbv iota.
    destruct (idx_put (d_index d1) k p) as [ix old]. injection H as <- <- <-. auto. }
  destruct Hd as (-> & -> & ->). eauto 10.
Qed.

Lemma db_delete_cases d k d' e evs : db_delete d k = (d', e, evs) ->
  ((len k =? 0) = true /\ d' = d /\ e = Some EKeyIsEmpty /\ evs = []) \/
  ((len k =? 0) = false /\ idx_get (d_index d) k = None /\ d' = d /\ e = None /\ evs = []) \/
  ((len k =? 0) = false /\ idx_get (d_index d) k <> None /\
   exists d1 p, db_append d (mkRec rt_Deleted k [] 0) = (d1, p, evs) /\ d' = idx_upd d1 (mkRec rt_Deleted k [] 0) p /\
     e = match snd (idx_del (d_index d1) k) with Some _ => None | None => Some EIndexUpdateFailed end).
Proof.
  unfold db_delete. destruct (len k =? 0); [intros [= <- <- <-]; left; auto|]. intros H. right.
  destruct (idx_get (d_index d) k) as [p0|]; [right|injection H as <- <- <-; left; auto].
  destruct (db_append d (mkRec rt_Deleted k [] 0)) as [[d1 p] ev1].
  split; [reflexivity|]. split; [discriminate|]. exists d1, p.
  unfold idx_upd. cbn [r_type r_key add_reclaim set_counters d_index] in *.
  change (rt_Deleted =? rt_Deleted) with true. cbv iota.
  destruct (idx_del (d_index d1) k) as [ix [o|]]; injection H as <- <- <-; cbn [snd opt_size]; [auto|].
  split; [reflexivity|]. split; [|reflexivity].
  unfold add_reclaim, set_index, set_counters. cbn [d_cfg d_active_id d_active d_older d_index d_bytes_write d_total d_reclaim].
  rewrite N.add_0_r. reflexivity.
Qed.

Lemma db_read_touched d p d' r evs : db_read d p = (d', r, evs) -> touched d d'.
Proof.
  unfold db_read. destruct (p_fid p =? d_active_id d).
  - pose proof (h_read_remapped (io_of d) (FData (d_active_id d)) (d_active d) (fst (read_span (d_active d) p))
                  (snd (read_span (d_active d) p))) as Hr.
    destruct (h_read _ _ _ _ _) as [a ev]. cbn [fst] in Hr.
    destruct (lf_lookup _ _ _); intros [= <- _ _]; apply touched_active; exact Hr.
  - destruct (older_get (d_older d) (p_fid p)) as [f|] eqn:Eo; [|intros [= <- _ _]; apply touched_refl].
    pose proof (h_read_remapped (io_of d) (FData (p_fid p)) f (fst (read_span f p)) (snd (read_span f p))) as Hr.
    destruct (h_read _ _ _ _ _) as [f' ev]. cbn [fst] in Hr.
    destruct (lf_lookup _ _ _); intros [= <- _ _]; eapply touched_older; eassumption.
Qed.
Lemma db_get_touched d k d' r evs : db_get d k = (d', r, evs) -> touched d d'.
Proof.
  unfold db_get. destruct (len k =? 0); [intros [= <- _ _]; apply touched_refl|].
  destruct (idx_get (d_index d) k); [apply db_read_touched|intros [= <- _ _]; apply touched_refl].
Qed.
Lemma db_fold_aux_touched : forall ix d d' r evs, db_fold_aux d ix = (d', r, evs) -> touched d d'.
Proof.
  induction ix as [|[k p] ix IH]; intros d d' r evs H; cbn [db_fold_aux] in H; [injection H as <- _ _; apply touched_refl|].
  destruct (db_read d p) as [[d1 v] ev1] eqn:Hrd. pose proof (db_read_touched _ _ _ _ _ Hrd) as H1.
  destruct v as [val|e]; [|injection H as <- _ _; exact H1].
  destruct (db_fold_aux d1 ix) as [[d2 rest] ev2] eqn:Hf. pose proof (IH _ _ _ _ Hf) as H2.
  destruct rest; injection H as <- _ _; eapply touched_trans; eassumption.
Qed.
Lemma merge_files_touched_by c : forall order d non_merge m d' res evs,
  merge_files c d order non_merge m = (d', res, evs) -> touched_by (c_io c) d d'.
Proof.
  induction order as [|fid order IH]; intros d non_merge m d' res evs H; cbn [merge_files] in H.
  - injection H as <- _ _. apply touched_by_refl.
  - destruct (older_get (d_older d) fid) as [f|] eqn:Eg; [|eapply IH; eassumption].
    pose proof (scan_touch_remapped (c_io c) (FData fid) f) as Hr.
    destruct (scan_touch (c_io c) (FData fid) f) as [f' ev0]. cbn [fst] in Hr.
    pose proof (touched_by_older _ d fid f f' Eg Hr) as H1.
    destruct (merge_file c _ fid non_merge m (lf_recs f')) as [[m'|e m'] ev1].
    + destruct (merge_files c _ order non_merge m') as [[d2 res2] ev2] eqn:Hrest.
      injection H as <- _ _. exact (touched_by_trans _ _ _ _ H1 (IH _ _ _ _ _ _ Hrest)).
    + injection H as <- _ _. exact H1.
Qed.
Lemma merge_files_touched c order d non_merge m d' res evs :
  c_io c = io_of d -> merge_files c d order non_merge m = (d', res, evs) -> touched d d'.
Proof. intros Hio H. unfold touched. rewrite <- Hio. exact (merge_files_touched_by c _ _ _ _ _ _ _ H). Qed.

Lemma db_sync_eq d : db_sync d = (set_active d (d_active_id d) (synced (d_active d)), [EvSync (FData (d_active_id d))]).
Proof. reflexivity. Qed.

Lemma run_bops_ind_ok (P : db -> batch -> Prop) (ok : bop -> Prop) :
  (forall d b k v d' b' e evs, P d b -> ok (BPut k v) -> batch_put d b k v = (d', b', e, evs) -> P d' b') ->
  (forall d b k d' b' e evs, P d b -> ok (BDel k) -> batch_delete d b k = (d', b', e, evs) -> P d' b') ->
  (forall d b k d' r evs, P d b -> ok (BGet k) -> batch_get d b k = (d', r, evs) -> P d' b) ->
  forall bops d b d' b' rs evs, P d b -> Forall ok bops -> run_bops d b bops = (d', b', rs, evs) -> P d' b'.
Proof.
  intros Hput Hdel Hget. induction bops as [|o bops IH]; intros d b d' b' rs evs HP Hok H; cbn [run_bops] in H.
  - injection H as <- <- _ _. exact HP.
  - inversion Hok as [|? ? Ho Hrest]; subst. destruct o as [k v|k|k].
    + destruct (batch_put d b k v) as [[[d1 b1] e] ev1] eqn:Hp.
      destruct (run_bops d1 b1 bops) as [[[d2 b2] rs2] ev2] eqn:Hr. injection H as <- <- _ _. eauto.
    + destruct (batch_delete d b k) as [[[d1 b1] e] ev1] eqn:Hp.
      destruct (run_bops d1 b1 bops) as [[[d2 b2] rs2] ev2] eqn:Hr. injection H as <- <- _ _. eauto.
    + destruct (batch_get d b k) as [[d1 v] ev1] eqn:Hp.
      destruct (run_bops d1 b bops) as [[[d2 b2] rs2] ev2] eqn:Hr. injection H as <- <- _ _. eauto.
Qed.
Lemma run_bops_ind (P : db -> batch -> Prop) :
  (forall d b k v d' b' e evs, P d b -> batch_put d b k v = (d', b', e, evs) -> P d' b') ->
  (forall d b k d' b' e evs, P d b -> batch_delete d b k = (d', b', e, evs) -> P d' b') ->
  (forall d b k d' r evs, P d b -> batch_get d b k = (d', r, evs) -> P d' b) ->
  forall bops d b d' b' rs evs, P d b -> run_bops d b bops = (d', b', rs, evs) -> P d' b'.
Proof.
  intros Hput Hdel Hget bops d b d' b' rs evs HP.
  apply (run_bops_ind_ok P (fun _ => True)); eauto. apply Forall_forall. auto.
Qed.

(* ---- Close and Open ------------------------------------------------------------------------------------------ *)
Lemma db_close_fst d k : fst (db_close d k) = mkDisk (map_files closed (db_files d)) (k_hint k) (k_merge k).
Proof.
  unfold db_close, db_files. rewrite <- older_set_map_files, <- (close_all_fst (io_of d)),
    <- (h_close_fst (io_of d) (FData (d_active_id d)) (d_active d)).
  destruct (h_close _ _ _), (close_all _ _). reflexivity.
Qed.

(* where replay starts when a merge was adopted: mid is the id in its marker (the first file the merge did not read,
   non_merge in db_merge), hinted the first id beyond the files the hint entries point into; 0 otherwise *)
Definition open_from (mid hinted : N) : N := if 0 <? mid then (if hinted <? mid then hinted else mid) else 0.
Definition open_pick (c : cfg) (files : list (N * lfile)) (ix : index) (tot rc : N) : db :=
  match split_last files with
  | Some (older, (aid, af)) => mkDb c aid af older ix 0 tot rc
  | None => mkDb c 0 (opened (c_io c) lf_empty) [] ix 0 tot rc
  end.
Definition fresh_db (c : cfg) : db := mkDb c 0 (opened (c_io c) lf_empty) [] [] 0 0 0.
Definition open_torn (files : list (N * lfile)) (from : N) : bool :=
  match split_last files with Some (_, (aid, af)) => (from <=? aid) && lf_torn af | None => false end.

Lemma db_open_shape c k r evs : db_open c k = (r, evs) ->
  exists k1 mid ev1 d1 hinted d3 t3 d4 ev5 k2,
    load_merge_files k = (k1, mid, ev1) /\
    let files := map_files (opened (c_io c)) (k_data k1) in
    load_hint (mkDb c 0 lf_empty [] [] 0 0 0)
      (if 0 <? mid then hf_recs (match k_hint k1 with Some h => h | None => hf_empty end) else []) 0 = (d1, hinted) /\
    replay_files (open_pick c files (d_index d1) (d_total d1) (d_reclaim d1)) [] files (open_from mid hinted) = (d3, t3) /\
    (if open_torn files (open_from mid hinted) then db_rotate d3 else (d3, [])) = (d4, ev5) /\
    r = OpenOk d4 k2 /\ k_merge k2 = k_merge k1.
Proof.
  unfold db_open. intros H. destruct (load_merge_files k) as [[k1 mid] ev1]. exists k1, mid, ev1.
  pose proof (open_all_fst (c_io c) (k_data k1)) as Hf. destruct (open_all (c_io c) (k_data k1)) as [files ev2].
  cbn [fst] in Hf. subst files. set (files := map_files (opened (c_io c)) (k_data k1)) in *.
  destruct (if 0 <? mid then _ else _) as [[hintrecs k2] ev3] eqn:Eh.
  assert (Hh : hintrecs = (if 0 <? mid then hf_recs (match k_hint k1 with Some h => h | None => hf_empty end) else []) /\
               k_merge k2 = k_merge k1).
  { destruct (0 <? mid); [destruct (c_io c =? io_MMap)|]; injection Eh as <- <- _; auto. }
  destruct Hh as [<- Hm]. destruct (load_hint _ hintrecs 0) as [d1 hinted] eqn:Hl. exists d1, hinted.
  fold (open_from mid hinted) in H. unfold open_pick, open_torn.
  destruct (split_last files) as [[older [aid af]]|].
  - destruct (replay_files _ [] files _) as [d3 t3] eqn:Hr.
    destruct (if (open_from mid hinted <=? aid) && lf_torn af then db_rotate d3 else (d3, [])) as [d4 ev5] eqn:Hrot.
    injection H as <- _. exists d3, t3, d4, ev5. eexists. cbv zeta. auto 10.
  - pose proof (h_open_fst (c_io c) (FData 0) false lf_empty) as Hn.
    destruct (h_open (c_io c) (FData 0) false lf_empty) as [n ev]. cbn [fst] in Hn. subst n.
    destruct (replay_files _ [] files _) as [d3 t3] eqn:Hr. injection H as <- _.
    exists d3, t3, d3, []. eexists. cbv zeta. auto 10.
Qed.
Lemma db_open_files (P : lfile -> Prop) c k k1 mid ev1 d k' evs :
  load_merge_files k = (k1, mid, ev1) -> db_open c k = (OpenOk d k', evs) ->
  (forall f, P f -> P (synced f)) -> P (opened (c_io c) lf_empty) ->
  Forall (fun x => P (opened (c_io c) (snd x))) (k_data k1) ->
  (P (d_active d) /\ Forall (fun x => P (snd x)) (d_older d) /\ d_cfg d = c) /\ k_merge k' = k_merge k1.
Proof.
  intros Hl H Hsync Hnew Hfiles.
  destruct (db_open_shape _ _ _ _ H) as (k1' & mid' & ev1' & d1 & hinted & d3 & t3 & d4 & ev5 & k2 & Hl' & _ & Hrep & Hrot & [= <- <-] & Hm).
  rewrite Hl in Hl'. injection Hl' as <- <- _. split; [|exact Hm]. set (files := map_files (opened (c_io c)) (k_data k1)) in *.
  assert (Hall : Forall (fun x => P (snd x)) files) by (unfold files, map_files; rewrite Forall_map; exact Hfiles).
  destruct (replay_files_index_only files (open_pick c files (d_index d1) (d_total d1) (d_reclaim d1)) [] (open_from mid hinted)) as (ix & tot & rc & E).
  rewrite Hrep in E. cbn [fst] in E.
  assert (H3 : P (d_active d3) /\ Forall (fun x => P (snd x)) (d_older d3) /\ d_cfg d3 = c).
  { subst d3. unfold open_pick. pose proof (split_last_spec files) as Hsp. destruct (split_last files) as [[older [aid af]]|]; cbn; [|auto].
    rewrite Hsp in Hall. apply Forall_app in Hall. destruct Hall as [Ho Ha]. apply Forall_inv in Ha. auto. }
  refine (maybe_rotate_ind (fun x => P (d_active x) /\ Forall (fun y => P (snd y)) (d_older x) /\ d_cfg x = c) _ _ _ _ Hrot H3 _).
  intros d' e Hr. rewrite (db_rotate_inv _ _ _ Hr). destruct H3 as (A & B & <-). cbn [rotated d_active d_older d_cfg].
  split; [exact Hnew|]. split; [apply older_set_Forall; [exact B|exact (Hsync _ A)]|reflexivity].
Qed.

Lemma db_open_ok c k : exists d k', fst (db_open c k) = OpenOk d k'.
Proof.
  destruct (db_open c k) as [r evs] eqn:H. apply db_open_shape in H.
  destruct H as (k1 & mid & ev1 & d1 & hinted & d3 & t3 & d4 & ev5 & k2 & _ & _ & _ & _ & -> & _). eexists _, _. reflexivity.
Qed.

(* ---- Merge ---------------------------------------------------------------------------------------------------- *)
Definition ms_init (io : N) : mstate := mkMs 0 (opened io lf_empty) [] (fst (hf_open_new io)).
(* the merge state after its output has been rotated *)
Definition ms_rotated (c : cfg) (m : mstate) : mstate :=
  mkMs (ms_active_id m + 1) (opened (c_io c) lf_empty) (older_set (ms_older m) (ms_active_id m) (synced (ms_active m)))
       (ms_hint m).

Lemma ms_append_shape c m r m' p evs : ms_append c m r = (m', p, evs) ->
  exists m1 a ev2,
    (m1 = m /\ lf_size (ms_active m) + disk_size_estimate (len (r_key r)) (len (r_value r)) <= c_fsize c \/
     m1 = ms_rotated c m) /\
    lf_append (c_io c) (MData (ms_active_id m1)) (ms_active_id m1) (ms_active m1) r = (a, p, ev2) /\
    m' = mkMs (ms_active_id m1) a (ms_older m1) (ms_hint m1).
Proof.
  unfold ms_append. intros H. destruct (c_fsize c <? _) eqn:E.
  - rewrite h_sync_eq in H. pose proof (h_open_fst (c_io c) (MData (ms_active_id m + 1)) false lf_empty) as Hn.
    destruct (h_open _ _ _ _) as [n e2]. cbn [fst] in Hn. subst n. fold (ms_rotated c m) in H.
    destruct (lf_append _ _ _ _ r) as [[a p0] ev2] eqn:Hla. injection H as <- <- _. exists (ms_rotated c m), a, ev2. auto.
  - apply N.ltb_ge in E. destruct (lf_append _ _ _ _ r) as [[a p0] ev2] eqn:Hla. injection H as <- <- _. exists m, a, ev2. auto.
Qed.

Lemma ms_hint_append_spec c m k p m' evs :
  ms_hint_append c m k p = (m', evs) ->
  ms_active_id m' = ms_active_id m /\ ms_active m' = ms_active m /\ ms_older m' = ms_older m /\
  hf_recs (ms_hint m') = hf_recs (ms_hint m) ++ [(k, p)].
Proof.
  unfold ms_hint_append.
  destruct (frame 0 (hf_size (ms_hint m) / blockSize) (hf_size (ms_hint m) mod blockSize) (hint_len k p)) as [[q b'] s'].
  intros [= <- _]. cbn. auto.
Qed.

(* ms_emits c nm m l m': writing the records l, each followed by its hint entry, takes the output from m to m',
   and the output never reaches file nm *)
Inductive ms_emits (c : cfg) (nm : N) : mstate -> list record -> mstate -> Prop :=
| emits_nil m : ms_emits c nm m [] m
| emits_cons m r m1 np ev1 m2 ev2 l m' :
    ms_append c m r = (m1, np, ev1) -> ms_active_id m1 < nm -> ms_hint_append c m1 (r_key r) np = (m2, ev2) ->
    ms_emits c nm m2 l m' -> ms_emits c nm m (r :: l) m'.

Lemma ms_emits_app c nm m l1 m1 l2 m2 : ms_emits c nm m l1 m1 -> ms_emits c nm m1 l2 m2 -> ms_emits c nm m (l1 ++ l2) m2.
Proof. induction 1 as [|m r ma np ev1 mb ev2 l m1 Ha Hlt Hh _ IH]; intros H2; [exact H2|]. exact (emits_cons _ _ _ _ _ _ _ _ _ _ _ Ha Hlt Hh (IH H2)). Qed.

Definition ms_files (m : mstate) : list (N * lfile) := older_set (ms_older m) (ms_active_id m) (ms_active m).
Definition hf_closed (h : hfile) : hfile := mkHf (hf_recs h) (hf_size h) (hf_size h).
(* the merge directory after a scan that gave up (no marker: Open ignores it) and after one that finished *)
Definition ms_abandoned (m : mstate) : mdir := mkMdir (ms_files m) (Some (ms_hint m)) None.
Definition ms_finish (m : mstate) (non_merge : N) : mdir :=
  mkMdir (map_files closed (ms_files m)) (Some (hf_closed (ms_hint m))) (Some non_merge).

Lemma hf_close_fst io h : fst (hf_close io h) = hf_closed h.
Proof. unfold hf_close. destruct (io =? io_MMap); reflexivity. Qed.

Lemma ms_finish_eq io m non_merge :
  mkMdir (older_set (fst (ms_close_older io (ms_older m))) (ms_active_id m) (fst (h_close io (MData (ms_active_id m)) (ms_active m))))
         (Some (fst (hf_close io (ms_hint m)))) (Some non_merge) = ms_finish m non_merge.
Proof. rewrite ms_close_older_fst, h_close_fst, hf_close_fst, older_set_map_files. reflexivity. Qed.

Lemma db_merge_i_shape d k order pro sched d' k' e evs : db_merge_i d k order pro sched = (d', k', e, evs) ->
  exists d1 ev1 d1p evp d2 res ev5,
    db_rotate d = (d1, ev1) /\ run_mops d1 pro = (d1p, evp) /\
    merge_files_i (d_cfg d) d1p order (d_active_id d1) (ms_init (io_of d)) sched = (d2, res, ev5) /\
    k_data k' = k_data k /\
    match res with
    | MsErr er m => d' = d2 /\ e = Some er /\ k_merge k' = Some (ms_abandoned m)
    | MsOk m => (exists evS, db_sync d2 = (d', evS)) /\ e = None /\ k_merge k' = Some (ms_finish m (d_active_id d1))
    end.
Proof.
  unfold db_merge_i. intros H. destruct (db_rotate d) as [d1 ev1]. exists d1, ev1.
  destruct (run_mops d1 pro) as [d1p evp]. exists d1p, evp.
  unfold ms_init, io_of. rewrite <- (h_open_fst (c_io (d_cfg d)) (MData 0) false lf_empty).
  destruct (h_open (c_io (d_cfg d)) (MData 0) false lf_empty) as [a0 ev3].
  destruct (hf_open_new (c_io (d_cfg d))) as [h0 ev4]. cbn [fst].
  destruct (merge_files_i (d_cfg d) d1p order (d_active_id d1) (mkMs 0 a0 [] h0) sched) as [[d2 res] ev5].
  exists d2, res, ev5. do 3 (split; [reflexivity|]). destruct res as [m|er m].
  - rewrite <- (ms_finish_eq (c_io (d_cfg d))).
    destruct (hf_close _ _), (h_close _ _ _), (ms_close_older _ _), (db_sync d2) as [d3 evS].
    injection H as <- <- <- _. eauto 10.
  - injection H as <- <- <- _. auto.
Qed.

Lemma merge_file_i_nil c fid nm d : forall rs m,
  merge_file_i c fid nm d m rs [] = let '(res, evs) := merge_file c (d_index d) fid nm m rs in (d, res, [], evs).
Proof.
  induction rs as [|[r p] rs IH]; intros m; [reflexivity|]. cbn [merge_file_i merge_file hd tl run_mops app].
  destruct (idx_get (d_index d) (r_key r)) as [q|]; [destruct (_ && _)|];
    try (rewrite IH; destruct (merge_file c (d_index d) fid nm m rs); reflexivity).
  destruct (ms_append c m _) as [[m1 np] ev1]. destruct (nm <=? ms_active_id m1); [reflexivity|].
  destruct (ms_hint_append c m1 (r_key r) np) as [m2 ev2]. rewrite IH. destruct (merge_file c (d_index d) fid nm m2 rs). reflexivity.
Qed.
Lemma merge_files_i_nil c nm : forall order d m, merge_files_i c d order nm m [] = merge_files c d order nm m.
Proof.
  induction order as [|fid order IH]; intros d m; cbn [merge_files_i merge_files]; [reflexivity|].
  destruct (older_get (d_older d) fid) as [f|]; [|apply IH]. destruct (scan_touch (c_io c) (FData fid) f) as [f' ev0].
  rewrite merge_file_i_nil. destruct (merge_file c _ fid nm m (lf_recs f')) as [[m'|e m'] ev1]; [rewrite IH|]; reflexivity.
Qed.
Theorem db_merge_seq d k order : db_merge d k order = db_merge_i d k order [] [].
Proof.
  unfold db_merge, db_merge_i. cbn [run_mops]. destruct (db_rotate d) as [d1 ev1].
  destruct (h_open _ _ _ _) as [a0 ev3]. destruct (hf_open_new _) as [h0 ev4]. rewrite merge_files_i_nil. reflexivity.
Qed.
Lemma db_merge_shape d k order d' k' e evs : db_merge d k order = (d', k', e, evs) ->
  exists d1 ev1 d2 res ev5,
    db_rotate d = (d1, ev1) /\
    merge_files (d_cfg d) d1 order (d_active_id d1) (ms_init (io_of d)) = (d2, res, ev5) /\
    k_data k' = k_data k /\
    match res with
    | MsErr er m => d' = d2 /\ e = Some er /\ k_merge k' = Some (ms_abandoned m)
    | MsOk m => (exists evS, db_sync d2 = (d', evS)) /\ e = None /\ k_merge k' = Some (ms_finish m (d_active_id d1))
    end.
Proof.
  rewrite db_merge_seq. intros H.
  destruct (db_merge_i_shape _ _ _ _ _ _ _ _ _ H) as (d1 & ev1 & d1p & evp & d2 & res & ev5 & Hrot & [= <- _] & Hmf & Hrest).
  rewrite merge_files_i_nil in Hmf. exists d1, ev1, d2, res, ev5. auto.
Qed.

Lemma step_cases d k o d' k' r evs : step (d, k) o = ((d', k'), r, evs) ->
  match o with
  | OpPut key v => k' = k /\ exists e, db_put d key v = (d', e, evs) /\ r = RErr e
  | OpDel key => k' = k /\ exists e, db_delete d key = (d', e, evs) /\ r = RErr e
  | OpGet key => k' = k /\ exists v, db_get d key = (d', v, evs) /\ r = RVal v
  | OpList => k' = k /\ d' = d /\ r = RKeys (db_list_keys d)
  | OpFold => k' = k /\ exists x, db_fold d = (d', x, evs) /\ r = RFold x
  | OpStat => k' = k /\ d' = d /\ r = RStat (len (d_index d)) (len (d_older d) + 1) (d_reclaim d) (d_total d)
  | OpSync => k' = k /\ db_sync d = (d', evs) /\ r = RErr None
  | OpBatch sync id bops =>
      k' = k /\ exists d1 b1 rs ev1 b2 e ev2,
        run_bops d (new_batch sync id) bops = (d1, b1, rs, ev1) /\ batch_commit d1 b1 = (d', b2, e, ev2) /\ r = RBatch rs e
  | OpMerge order => exists e, db_merge d k order = (d', k', e, evs) /\ r = RMerge e
  | OpRestart c => exists k1 ev1 ev2, db_close d k = (k1, ev1) /\ db_open c k1 = (OpenOk d' k', ev2) /\ r = RErr None
  end.
Proof.
  destruct o as [key v|key|key| | | | |sync id bops|order|c]; cbn [step].
  - destruct (db_put d key v) as [[d1 e] ev1]. intros [= <- <- <- <-]. eauto.
  - destruct (db_get d key) as [[d1 v] ev1]. intros [= <- <- <- <-]. eauto.
  - destruct (db_delete d key) as [[d1 e] ev1]. intros [= <- <- <- <-]. eauto.
  - intros [= <- <- <- _]. auto.
  - destruct (db_fold d) as [[d1 x] ev1]. intros [= <- <- <- <-]. eauto.
  - unfold db_stat. intros [= <- <- <- _]. auto.
  - destruct (db_sync d) as [d1 ev1]. intros [= <- <- <- <-]. auto.
  - destruct (run_bops d (new_batch sync id) bops) as [[[d1 b1] rs] ev1].
    destruct (batch_commit d1 b1) as [[[d2 b2] e] ev2] eqn:Hc. intros [= <- <- <- _].
    split; [reflexivity|]. exists d1, b1, rs, ev1, b2, e, ev2. auto.
  - destruct (db_merge d k order) as [[[d1 k1] e] ev1]. intros [= <- <- <- <-]. eauto.
  - destruct (db_close d k) as [k1 ev1]. destruct (db_open_ok c k1) as (d1 & k2 & Ho).
    destruct (db_open c k1) as [ro ev2] eqn:Hopen. cbn [fst] in Ho. subst ro. intros [= <- <- <- _].
    exists k1, ev1, ev2. auto.
Qed.

Lemma run_invariant (P : state -> Prop) (ok : op -> Prop) :
  (forall s o s' r e, P s -> ok o -> step s o = (s', r, e) -> P s') ->
  forall ops s s' rs evs, P s -> Forall ok ops -> run s ops = (s', rs, evs) -> P s'.
Proof.
  intros Hstep. induction ops as [|o ops IH]; intros s s' rs evs HP Hok H; cbn [run] in H.
  - injection H as <- _ _. exact HP.
  - destruct (step s o) as [[s1 r] ev1] eqn:Hst. destruct (run s1 ops) as [[s2 rs2] ev2] eqn:Hr.
    injection H as <- _ _. inversion Hok as [|? ? Ho Hrest]; subst. eauto.
Qed.

Lemma run_refinement (P : state -> smap -> Prop) (ok : op -> Prop) :
  (forall s m o s' r e, P s m -> ok o -> step s o = (s', r, e) ->
     P s' (fst (sstep m o)) /\ proj r = proj (snd (sstep m o))) ->
  forall ops s m s' rs evs, P s m -> Forall ok ops -> run s ops = (s', rs, evs) ->
  map proj rs = map proj (srun m ops) /\ P s' (fold_left (fun m o => fst (sstep m o)) ops m).
Proof.
  intros Hstep. induction ops as [|o ops IH]; intros s m s' rs evs HP Hok H; cbn [run srun fold_left] in *.
  - injection H as <- <- _. auto.
  - destruct (step s o) as [[s1 r] ev1] eqn:Hst. destruct (run s1 ops) as [[s2 rs2] ev2] eqn:Hr.
    injection H as <- <- _. inversion Hok as [|? ? Ho Hrest]; subst.
    destruct (Hstep _ _ _ _ _ _ HP Ho Hst) as [HP1 Hpr]. destruct (sstep m o) as [m1 r1]. cbn [fst snd] in *.
    destruct (IH _ _ _ _ _ HP1 Hrest Hr) as [Hrs Hm]. cbn [map]. rewrite Hpr, Hrs. auto.
Qed.
