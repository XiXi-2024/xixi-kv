(* EngineOpen.v — Open in general, with or without a finished merge to adopt: the opened database
   satisfies the log invariant for the data files the adoption step leaves.  Loading the hint file and
   scanning the files written after the merge builds the index that scanning every file builds, so the
   general case rests on the plain scan.  Open without a pending merge is the case mid = 0: db_open_spec
   and what rests on it (Close then Open, scripts with restarts) stand at the end. *)
From Coq Require Import ZArith Lia ZifyN ZifyNat ZifyBool Sorting.Sorted.
From KV Require Import Bytes GenConsts Chunk Record Engine Script BytesLemmas AMapLemmas
  EngineFiles EngineOps EngineLog EngineRecover.
Open Scope N_scope.

Definition plain_live (r : record) : Prop := r_batch r = 0 /\ (r_type r =? rt_Deleted) = false.

Lemma sreplay_plain : forall L m t, Forall (fun r => r_batch r = 0) L -> sreplay m t L = (s_apply_recs m L, t).
Proof.
  induction L as [|r L IH]; intros m t H; [reflexivity|].
  cbn [sreplay s_apply_recs fold_left]. rewrite (Forall_inv H), N.eqb_refl. apply IH. exact (Forall_inv_tail H).
Qed.

Definition recs_of (fs : list (N * lfile)) : list (record * pos) := concat (map (fun x => lf_recs (snd x)) fs).
Definition hint_of (rps : list (record * pos)) : list (bytes * pos) := map (fun rp => (r_key (fst rp), snd rp)) rps.

Lemma files_log_recs fs : files_log fs = map fst (recs_of fs).
Proof.
  unfold files_log, recs_of, file_log. induction fs as [|x fs IH]; [reflexivity|].
  cbn [map concat]. rewrite map_app, IH. reflexivity.
Qed.
Lemma recs_of_app a b : recs_of (a ++ b) = recs_of a ++ recs_of b.
Proof. unfold recs_of. rewrite map_app, concat_app. reflexivity. Qed.
Lemma recs_of_in fs r p : In (r, p) (recs_of fs) -> exists id f, In (id, f) fs /\ In (r, p) (lf_recs f).
Proof.
  unfold recs_of. induction fs as [|[id f] fs IH]; cbn [map concat snd]; [intros []|].
  intros H. apply in_app_or in H. destruct H as [H|H].
  - exists id, f. split; [left; reflexivity|exact H].
  - destruct (IH H) as (id' & f' & H1 & H2). exists id', f'. split; [right; exact H1|exact H2].
Qed.

Lemma load_hint_files : forall H d x,
  d_active_id (fst (load_hint d H x)) = d_active_id d /\ d_active (fst (load_hint d H x)) = d_active d /\
  d_older (fst (load_hint d H x)) = d_older d /\ d_cfg (fst (load_hint d H x)) = d_cfg d.
Proof. intros H d x. destruct (load_hint_index_only H d x) as (ix & tot & rc & ->). auto. Qed.

Definition hint_index (H : list (bytes * pos)) (ix : index) : index :=
  fold_left (fun ix kp => fst (amap_put ix (fst kp) (snd kp))) H ix.

Lemma load_hint_index : forall H d x, d_index (fst (load_hint d H x)) = hint_index H (d_index d).
Proof.
  induction H as [|[k p] H IH]; intros d x; cbn [load_hint fst hint_index fold_left snd]; [reflexivity|].
  unfold idx_put. destruct (amap_put (d_index d) k p) as [ix old]. rewrite IH. reflexivity.
Qed.

(* "hinted", the second result of load_hint: the first file id no hint entry covers *)
Lemma load_hint_hinted : forall H d x, x <= snd (load_hint d H x) /\
  forall k p, In (k, p) H -> p_fid p + 1 <= snd (load_hint d H x).
Proof.
  induction H as [|[k p] H IH]; intros d x; cbn [load_hint snd]; [split; [lia|intros ? ? []]|].
  destruct (idx_put (d_index d) k p) as [ix old].
  edestruct IH as [A B]. split; [|intros k0 p0 [Heq|Hin]; [injection Heq as <- <-|exact (B _ _ Hin)]].
  all: etransitivity; [|exact A]; destruct (x <? p_fid p + 1) eqn:E; lia.
Qed.

Definition below (n : N) (fs : list (N * lfile)) := filter (fun x => fst x <? n) fs.
(* the files with ids from n on ("from" alone is a keyword) *)
Definition from_ (n : N) (fs : list (N * lfile)) := filter (fun x => n <=? fst x) fs.

Lemma ids_above_all o lo id f : ids_above o lo -> In (id, f) o -> lo < id.
Proof. exact (ids_above_in o lo id f). Qed.

Lemma ids_above_none o lo x : ids_above o lo -> x <= lo -> older_get o x = None.
Proof.
  induction o as [|[i g] o IH]; cbn [ids_above older_get]; [reflexivity|].
  intros [H1 H2] Hx. destruct (i =? x) eqn:E; [lia|auto].
Qed.

Lemma asc_ext : forall a b, asc a -> asc b -> (forall x, older_get a x = older_get b x) -> a = b.
Proof.
  assert (Hhead : forall i f a x, asc ((i, f) :: a) -> older_get ((i, f) :: a) x <> None -> i <= x).
  { intros i f a x [Ha _]. cbn [older_get]. destruct (i =? x) eqn:E; [lia|].
    destruct (N.le_gt_cases i x) as [Hle|Hgt]; [auto|]. rewrite (ids_above_none a i x Ha) by lia. congruence. }
  assert (Hself : forall i f a, older_get ((i, f) :: a) i = Some f) by (intros; cbn [older_get]; rewrite N.eqb_refl; reflexivity).
  induction a as [|[i f] a IH]; intros [|[j g] b] Ha Hb Hget; [reflexivity| | |].
  - specialize (Hget j). rewrite Hself in Hget. discriminate.
  - specialize (Hget i). rewrite Hself in Hget. discriminate.
  - assert (Hij : i = j).
    { apply N.le_antisymm; [apply (Hhead i f a j Ha); rewrite Hget|apply (Hhead j g b i Hb); rewrite <- Hget];
        rewrite Hself; discriminate. }
    subst j. pose proof (Hget i) as Hf. rewrite !Hself in Hf. injection Hf as <-.
    f_equal. apply IH; [exact (proj2 Ha)|exact (proj2 Hb)|]. intros x. specialize (Hget x). cbn [older_get] in Hget.
    destruct (i =? x) eqn:E; [|exact Hget].
    rewrite (ids_above_none a i x (proj1 Ha)), (ids_above_none b i x (proj1 Hb)) by lia. reflexivity.
Qed.

Lemma older_get_filter (pb : N -> bool) fs x :
  older_get (filter (fun y => pb (fst y)) fs) x = if pb x then older_get fs x else None.
Proof.
  induction fs as [|[i g] fs IH]; cbn [filter older_get fst]; [destruct (pb x); reflexivity|].
  destruct (i =? x) eqn:E.
  - assert (i = x) by lia. subst i. destruct (pb x) eqn:Ex; [cbn [older_get]; rewrite E; reflexivity|exact IH].
  - destruct (pb i); [cbn [older_get]; rewrite E|]; exact IH.
Qed.
Lemma asc_filter (pb : N * lfile -> bool) fs : asc fs -> asc (filter pb fs).
Proof.
  assert (Habove : forall lo l, ids_above l lo -> ids_above (filter pb l) lo).
  { intros lo. induction l as [|[i g] l IH]; cbn [filter ids_above]; [auto|]. intros [H1 H2]. destruct (pb (i, g)); cbn [ids_above]; auto. }
  induction fs as [|[i g] fs IH]; cbn [filter asc]; [auto|]. intros [H1 H2].
  destruct (pb (i, g)); cbn [asc]; auto.
Qed.

Lemma older_get_below n fs x : older_get (below n fs) x = if x <? n then older_get fs x else None.
Proof. exact (older_get_filter (fun i => i <? n) fs x). Qed.
Lemma older_get_from_ n fs x : older_get (from_ n fs) x = if n <=? x then older_get fs x else None.
Proof. exact (older_get_filter (fun i => n <=? i) fs x). Qed.

Lemma in_below n fs id f : In (id, f) (below n fs) <-> In (id, f) fs /\ id < n.
Proof. unfold below. rewrite filter_In. cbn [fst]. rewrite N.ltb_lt. reflexivity. Qed.

Lemma below_zero fs : below 0 fs = [].
Proof. unfold below. induction fs as [|[i g] fs IH]; [reflexivity|]. cbn [filter fst]. destruct (i <? 0) eqn:E; [lia|exact IH]. Qed.
Lemma from_zero fs : from_ 0 fs = fs.
Proof. unfold from_. induction fs as [|[i g] fs IH]; [reflexivity|]. cbn [filter fst]. destruct (0 <=? i) eqn:E; [|lia]. f_equal. exact IH. Qed.

Lemma below_above fs lo m : ids_above fs lo -> m <= lo + 1 -> below m fs = [].
Proof.
  induction fs as [|[i g] fs IH]; cbn [ids_above below filter fst]; [reflexivity|]. intros [H1 H2] Hm.
  destruct (i <? m) eqn:E; [lia|]. apply IH; assumption.
Qed.

Lemma split_at fs n mid : asc fs -> n <= mid -> (forall id f, In (id, f) fs -> id < n \/ mid <= id) ->
  fs = below n fs ++ from_ mid fs.
Proof.
  intros Hasc Hn. induction fs as [|[i g] fs IH]; intros Hp; [reflexivity|].
  destruct Hasc as [Hab Hasc]. cbn [below from_ filter fst]. fold (below n fs). fold (from_ mid fs).
  assert (IH' : fs = below n fs ++ from_ mid fs) by (apply IH; [exact Hasc|intros id f Hin; apply (Hp id f); right; exact Hin]).
  destruct (Hp i g (or_introl eq_refl)) as [Hlt|Hge].
  - destruct (i <? n) eqn:E1; [|lia]. destruct (mid <=? i) eqn:E2; [lia|]. cbn [app]. f_equal. exact IH'.
  - destruct (i <? n) eqn:E1; [lia|]. destruct (mid <=? i) eqn:E2; [|lia].
    rewrite (below_above fs i n Hab) in * by lia. cbn [app] in *. f_equal. exact IH'.
Qed.

Lemma replay_files_from d t mid from : forall files, from <= mid ->
  (forall id f, In (id, f) files -> from <= id -> id < mid -> lf_recs f = []) ->
  replay_files d t files from = replay_files d t (from_ mid files) 0.
Proof.
  intros files Hle. revert d t. induction files as [|[i g] files IH]; intros d t He; [reflexivity|].
  cbn [replay_files from_ filter fst].
  assert (IH' : forall d t, replay_files d t files from = replay_files d t (from_ mid files) 0).
  { intros d' t'. apply IH. intros id f Hin. apply He. right. exact Hin. }
  destruct (i <? from) eqn:E1.
  - destruct (mid <=? i) eqn:E2; [lia|]. apply IH'.
  - destruct (mid <=? i) eqn:E2.
    + cbn [replay_files]. destruct (i <? 0) eqn:E3; [lia|]. destruct (replay_recs d t (lf_recs g)) as [d' t']. apply IH'.
    + rewrite (He i g (or_introl eq_refl)) by lia. cbn [replay_recs]. apply IH'.
Qed.

Lemma replay_recs_app : forall a b d t,
  replay_recs d t (a ++ b) = replay_recs (fst (replay_recs d t a)) (snd (replay_recs d t a)) b.
Proof.
  induction a as [|[r p] a IH]; intros b d t; [reflexivity|]. cbn [app replay_recs].
  destruct (r_batch r =? 0); [apply IH|]. destruct (r_type r =? rt_BatchFinished); apply IH.
Qed.

Lemma replay_files_recs : forall fs d t, replay_files d t fs 0 = replay_recs d t (recs_of fs).
Proof.
  induction fs as [|[i g] fs IH]; intros d t; [reflexivity|]. cbn [replay_files]. destruct (i <? 0) eqn:E; [lia|].
  unfold recs_of. cbn [map concat snd]. rewrite replay_recs_app. destruct (replay_recs d t (lf_recs g)) as [d' t']. exact (IH d' t').
Qed.

Lemma update_index_index d r p :
  d_index (update_index d (r_key r) (r_type r) p) =
    if r_type r =? rt_Deleted then fst (amap_del (d_index d) (r_key r)) else fst (amap_put (d_index d) (r_key r) p).
Proof. rewrite update_index_idx_upd. exact (idx_upd_index d r p). Qed.

Lemma replay_recs_index_cong : forall rs a b t, d_index a = d_index b ->
  d_index (fst (replay_recs a t rs)) = d_index (fst (replay_recs b t rs)) /\
  snd (replay_recs a t rs) = snd (replay_recs b t rs).
Proof.
  assert (Hfold : forall (l : list (record * pos)) a b, d_index a = d_index b ->
            d_index (fold_left (fun acc e => update_index acc (r_key (fst e)) (r_type (fst e)) (snd e)) l a) =
            d_index (fold_left (fun acc e => update_index acc (r_key (fst e)) (r_type (fst e)) (snd e)) l b)).
  { induction l as [|e l IH]; intros a b Hab; [exact Hab|]. cbn [fold_left]. apply IH. rewrite !update_index_index, Hab. reflexivity. }
  induction rs as [|[r p] rs IH]; intros a b t Hab; cbn [replay_recs]; [auto|].
  destruct (r_batch r =? 0); [apply IH; rewrite !update_index_index, Hab; reflexivity|].
  destruct (r_type r =? rt_BatchFinished); apply IH; [apply Hfold|]; exact Hab.
Qed.

Lemma replay_recs_plain_live : forall rs d t, Forall (fun rp => plain_live (fst rp)) rs ->
  snd (replay_recs d t rs) = t /\ d_index (fst (replay_recs d t rs)) = hint_index (hint_of rs) (d_index d).
Proof.
  induction rs as [|[r p] rs IH]; intros d t H; [auto|]. destruct (Forall_inv H) as [Hb Hty]. cbn [fst] in Hb, Hty.
  cbn [replay_recs hint_of map hint_index fold_left fst snd]. rewrite Hb, N.eqb_refl.
  destruct (IH (update_index d (r_key r) (r_type r) p) t (Forall_inv_tail H)) as [A B]. split; [exact A|].
  rewrite B, update_index_index, Hty. reflexivity.
Qed.

Theorem hint_index_equals_scan_index c aid af older files n mid tot rc :
  files = below n files ++ from_ mid files ->
  Forall (fun rp => plain_live (fst rp)) (recs_of (below n files)) ->
  d_index (fst (replay_files (mkDb c aid af older (hint_index (hint_of (recs_of (below n files))) []) 0 tot rc) []
                             (from_ mid files) 0)) =
  d_index (fst (replay_files (mkDb c aid af older [] 0 0 0) [] files 0)).
Proof.
  intros Hsplit Hpl. rewrite !replay_files_recs.
  assert (E : recs_of files = recs_of (below n files) ++ recs_of (from_ mid files)) by (rewrite Hsplit at 1; apply recs_of_app).
  rewrite E, replay_recs_app. destruct (replay_recs_plain_live _ (mkDb c aid af older [] 0 0 0) [] Hpl) as [Ht Hix].
  rewrite Ht. apply replay_recs_index_cong. rewrite Hix. reflexivity.
Qed.

Lemma opened_ok io data : Forall file_ok data ->
  Forall (fun x => wf_lfile (snd x) /\ pos_ok (fst x) (snd x)) (map_files (opened io) data).
Proof.
  intros H. apply Forall_forall. intros [id f'] Hin. apply in_map_files in Hin. destruct Hin as (f & Hin & ->).
  rewrite Forall_forall in H. destruct (H _ Hin) as (Hwf & Hpo & Hph). destruct (opened_fields io f) as (Hr & Hs & _).
  cbn [fst snd] in *. split; [apply (wf_lfile_same f); [exact Hr|congruence|exact Hwf]|exact (pos_ok_same id f _ Hr Hpo)].
Qed.
Lemma below_map_files g n l : below n (map_files g l) = map_files g (below n l).
Proof.
  unfold below, map_files. induction l as [|[i f] l IH]; [reflexivity|]. cbn [map filter fst].
  destruct (i <? n); cbn [map]; rewrite IH; reflexivity.
Qed.
Lemma recs_of_map_files g l : (forall f, lf_recs (g f) = lf_recs f) -> recs_of (map_files g l) = recs_of l.
Proof. intros Hg. unfold recs_of, map_files. rewrite map_map. f_equal. apply map_ext. intros x. apply Hg. Qed.

(* what the adoption step leaves when a merge was adopted: the hint file lists the records of the
   rewritten files (those below n); no file has an id from n up to the marker id *)
Definition HintOK (k1 : disk) (mid : N) : Prop :=
  exists h n, k_hint k1 = Some h /\ n <= mid /\
    hf_recs h = hint_of (recs_of (below n (k_data k1))) /\
    Forall (fun rp => plain_live (fst rp)) (recs_of (below n (k_data k1))) /\
    (forall id f, In (id, f) (k_data k1) -> id < n \/ mid <= id).

Lemma hinted_files_skipped files n mid hinted :
  Forall (fun x => wf_lfile (snd x) /\ pos_ok (fst x) (snd x)) files ->
  (forall id f, In (id, f) files -> id < n \/ mid <= id) ->
  (forall k p, In (k, p) (hint_of (recs_of (below n files))) -> p_fid p + 1 <= hinted) ->
  forall id f, In (id, f) files -> hinted <= id -> id < mid -> lf_recs f = [].
Proof.
  intros Hok Hpart Hhinted id f Hin Hge Hlt. destruct (lf_recs f) as [|[r p] l] eqn:El; [reflexivity|exfalso].
  destruct (Hpart id f Hin) as [Hidn|Hidm]; [|lia].
  assert (Hrp : In (r, p) (lf_recs f)) by (rewrite El; left; reflexivity).
  assert (Hh : In (r_key r, p) (hint_of (recs_of (below n files)))).
  { unfold hint_of. apply in_map_iff. exists (r, p). split; [reflexivity|]. unfold recs_of. apply in_concat.
    exists (lf_recs f). split; [|exact Hrp]. apply in_map_iff. exists (id, f). split; [reflexivity|]. apply in_below. auto. }
  rewrite Forall_forall in Hok. destruct (proj2 (Hok _ Hin) r p Hrp) as [Hfid _]. cbn [fst] in Hfid.
  specialize (Hhinted _ _ Hh). lia.
Qed.

Theorem db_open_general c k k1 mid ev1 :
  load_merge_files k = (k1, mid, ev1) ->
  asc (k_data k1) -> Forall file_ok (k_data k1) ->
  (mid = 0 \/ (0 < mid /\ HintOK k1 mid)) ->
  exists d k' evs, db_open c k = (OpenOk d k', evs) /\
    LogOK d (fst (sreplay [] [] (files_log (k_data k1)))) /\
    log d = files_log (k_data k1) /\ d_cfg d = c /\ k_merge k' = k_merge k1.
Proof.
  intros Hload Hasc Hok Hmid. destruct (db_open c k) as [r evs] eqn:Ho.
  destruct (db_open_shape c k r evs Ho) as (k1' & mid' & ev1' & d1 & hinted & d3 & t3 & d4 & ev5 & k2 & Hload' & Hhint & Hrep & Hrot & -> & Hk2).
  rewrite Hload in Hload'. injection Hload' as <- <- <-. cbv zeta in Hhint, Hrep, Hrot.
  exists d4, k2, evs. split; [reflexivity|]. cut (LogOK d4 (fst (sreplay [] [] (files_log (k_data k1)))) /\ log d4 = files_log (k_data k1) /\ d_cfg d4 = c); [tauto|]. clear Ho Hload Hk2.
  set (files := map_files (opened (c_io c)) (k_data k1)) in *.
  assert (Hrecs0 : forall f, lf_recs (opened (c_io c) f) = lf_recs f) by (intros f; exact (proj1 (opened_fields (c_io c) f))).
  rewrite <- (files_log_map_files (opened (c_io c)) (k_data k1) Hrecs0). fold files.
  pose proof (asc_ids files (k_data k1) (map_files_ids _ _) Hasc) as Hasc'.
  pose proof (opened_ok (c_io c) (k_data k1) Hok) as Hok'. fold files in Hok'.
  assert (HT : exists n, (if 0 <? mid then hf_recs match k_hint k1 with Some h => h | None => hf_empty end else []) =
                         hint_of (recs_of (below n files)) /\
      Forall (fun rp => plain_live (fst rp)) (recs_of (below n files)) /\
      n <= mid /\ (forall id f, In (id, f) files -> id < n \/ mid <= id)).
  { destruct Hmid as [->|(Hpos & h & n & Hh & Hn & Hrecs & Hpl & Hpart)].
    - exists 0. rewrite below_zero. split; [reflexivity|]. split; [constructor|]. split; [lia|]. intros; lia.
    - rewrite (proj2 (N.ltb_lt 0 mid) Hpos), Hh. exists n. unfold files.
      rewrite below_map_files, (recs_of_map_files _ _ Hrecs0). split; [exact Hrecs|]. split; [exact Hpl|]. split; [exact Hn|].
      intros id f Hin. apply in_map_files in Hin. destruct Hin as (f0 & Hin & _). exact (Hpart _ _ Hin). }
  clearbody files. clear Hrecs0.
  destruct HT as (n & HT & Hpl & Hn & Hpart). rewrite HT in Hhint. clear HT.
  set (RL := recs_of (below n files)) in *.
  pose proof (load_hint_index (hint_of RL) (mkDb c 0 lf_empty [] [] 0 0 0) 0) as Hix1.
  pose proof (load_hint_hinted (hint_of RL) (mkDb c 0 lf_empty [] [] 0 0 0) 0) as [_ Hhinted].
  rewrite Hhint in Hix1, Hhinted. cbn [fst snd d_index] in Hix1, Hhinted.
  unfold open_pick, open_torn in *. pose proof (split_last_spec files) as Hsl.
  destruct (split_last files) as [[older [aid af]]|].
  - (* with the index loaded from the hint, scanning from open_from on comes to scanning every file *)
    assert (Hfrom : open_from mid hinted <= mid /\
              forall id f, In (id, f) files -> open_from mid hinted <= id -> id < mid -> lf_recs f = []).
    { unfold open_from. destruct (0 <? mid) eqn:E; [|split; [|intros]; lia].
      split; [destruct (hinted <? mid) eqn:E2; lia|]. intros id f Hin Hge Hlt.
      apply (hinted_files_skipped files n mid hinted Hok' Hpart Hhinted id f Hin); [|exact Hlt].
      destruct (hinted <? mid) eqn:E2; lia. }
    rewrite (replay_files_from _ [] mid _ files (proj1 Hfrom) (proj2 Hfrom)) in Hrep. clear Hfrom.
    pose proof (hint_index_equals_scan_index c aid af older files n mid (d_total d1) (d_reclaim d1)
                  (split_at files n mid Hasc' Hn Hpart) Hpl) as Hix. fold RL in Hix. rewrite <- Hix1, Hrep in Hix.
    subst files. destruct (scan_LogOK c older aid af Hasc' Hok') as (HL3 & Hlog3).
    destruct (replay_files_index_only (older ++ [(aid, af)]) (mkDb c aid af older [] 0 0 0) [] 0) as (ixs & tots & rcs & Es).
    destruct (replay_files_index_only (from_ mid (older ++ [(aid, af)])) (mkDb c aid af older (d_index d1) 0 (d_total d1) (d_reclaim d1)) [] 0)
      as (ix3 & tot3 & rc3 & E3).
    rewrite Hrep in E3. rewrite Es in HL3, Hlog3, Hix. cbn [fst d_cfg d_active_id d_active d_older d_index d_bytes_write] in *. subst d3.
    (* neither the invariant nor the log mentions the two size counters *)
    cbn [d_index] in Hix. subst ix3. change (LogOK (mkDb c aid af older ixs 0 tot3 rc3) (fst (sreplay [] [] (files_log (older ++ [(aid, af)]))))) in HL3.
    change (log (mkDb c aid af older ixs 0 tot3 rc3) = files_log (older ++ [(aid, af)])) in Hlog3.
    apply (maybe_rotate_ind (fun d => LogOK d _ /\ log d = _ /\ d_cfg d = c) _ _ _ _ Hrot); [auto|].
    intros d0 e H0. destruct (db_rotate_LogOK _ _ d0 e HL3 H0) as (HL4 & Hlog4 & Hcfg4). rewrite Hlog4, Hcfg4. auto.
  - (* an empty directory *)
    subst files. cbn [RL below filter recs_of map concat hint_of load_hint replay_files] in *.
    injection Hhint as <- _. injection Hrep as <- _. injection Hrot as <- _. destruct (fresh_db_LogOK c) as [HL Hlog]. auto.
Qed.

Lemma load_merge_files_none k : k_merge k = None -> load_merge_files k = (k, 0, []).
Proof. intros H. unfold load_merge_files. rewrite H. reflexivity. Qed.

Theorem db_open_spec c k :
  disk_ok k ->
  exists d k' evs, db_open c k = (OpenOk d k', evs) /\
    LogOK d (fst (sreplay [] [] (files_log (k_data k)))) /\
    log d = files_log (k_data k) /\ d_cfg d = c /\ k_merge k' = None.
Proof.
  intros (Hnm & Hasc & Hok).
  destruct (db_open_general c k k 0 [] (load_merge_files_none k Hnm) Hasc Hok (or_introl eq_refl)) as (d & k' & evs & H1 & H2 & H3 & H4 & H5).
  exists d, k', evs. rewrite H5. auto.
Qed.

Theorem restart_spec d k m c k1 ev1 :
  LogInv d m -> k_merge k = None -> db_close d k = (k1, ev1) ->
  exists d' k2 ev2, db_open c k1 = (OpenOk d' k2, ev2) /\ LogInv d' m /\ k_merge k2 = None /\ d_cfg d' = c.
Proof.
  intros HL Hnm Hc. destruct (db_close_spec _ _ _ _ _ HL Hnm Hc) as (Hok & Hlog).
  destruct (db_open_spec c k1 Hok) as (d' & k2 & ev2 & Ho & HLO & Hlog' & Hcfg & Hnm2).
  destruct HL as [(_ & _ & _ & _ & Hm) Ht].
  exists d', k2, ev2. split; [exact Ho|]. rewrite Hlog, Hm in HLO.
  split; [split; [exact HLO|rewrite Hlog', Hlog; exact Ht]|auto].
Qed.

Theorem step_log d k m o d' k' r evs :
  LogInv d m -> k_merge k = None -> op_ok o -> step (d, k) o = ((d', k'), r, evs) ->
  LogInv d' (fst (sstep m o)) /\ k_merge k' = None /\ proj r = proj (snd (sstep m o)).
Proof.
  intros HL Hnm Hok Hst. destruct o as [key v|key|key| | | | |sync id bops|order|c].
  (* every operation but a restart: no_restart o is True, the disk stays *)
  1-9: destruct (step_log_live _ _ _ _ _ _ _ _ HL Hok I Hst) as (A & -> & B); auto.
  apply step_cases in Hst. destruct Hst as (k1 & ev1 & ev2 & Hc & Ho & ->).
  destruct (restart_spec d k m c k1 ev1 HL Hnm Hc) as (d1 & k2 & ev2' & Ho' & HL1 & Hnm2 & _).
  rewrite Ho in Ho'. injection Ho' as <- <- _. cbn [sstep fst snd]. auto.
Qed.

Theorem run_log_state ops d k m s' rs evs :
  LogInv d m -> k_merge k = None -> Forall op_ok ops -> run (d, k) ops = (s', rs, evs) ->
  map proj rs = map proj (srun m ops) /\
  LogInv (fst s') (fold_left (fun m o => fst (sstep m o)) ops m) /\ k_merge (snd s') = None.
Proof.
  intros HL Hnm Hok Hrun.
  apply (run_refinement (fun s m => LogInv (fst s) m /\ k_merge (snd s) = None) op_ok) with (4 := Hrun); [|auto|exact Hok].
  intros [d0 k0] m0 o [d1 k1] r e [H1 H2] Ho Hst. destruct (step_log _ _ _ _ _ _ _ _ H1 H2 Ho Hst) as (A & B & C). auto.
Qed.
