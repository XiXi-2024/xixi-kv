(* EngineFiles.v — record-level files: what each handle operation does to each field of a file, lookup by
   position, appends, and the table of older files. *)
From Coq Require Import ZArith Lia ZifyN ZifyNat ZifyBool.
From KV Require Import Bytes GenConsts Chunk Record Engine BytesLemmas ChunkProofs FileProofs ListLemmas.
Open Scope N_scope.

Definition pstart (p : pos) : N := p_bid p * blockSize + p_off p.

Definition wf_lfile (f : lfile) : Prop :=
  forall r p, In (r, p) (lf_recs f) ->
    pstart p < lf_size f /\ p_off p < blockSize /\ pstart p + p_size p <= lf_size f /\ 0 < p_size p.

Lemma wf_lf_empty : wf_lfile lf_empty.
Proof. intros r p []. Qed.

Lemma rec_len_pos r : 0 < rec_len r.
Proof. unfold rec_len, encoded_len. lia. Qed.

Lemma frame_props fid bid bsz n p b' s' :
  bsz < blockSize -> 0 < n -> frame fid bid bsz n = (p, b', s') ->
  p_fid p = fid /\ p_off p < blockSize /\ bid * blockSize + bsz <= pstart p /\
  pstart p + p_size p = b' * blockSize + s' /\ 0 < p_size p /\ s' < blockSize.
Proof.
  intros Hwf Hn Hfr. destruct (frame_spec _ _ _ _ _ _ _ Hwf Hfr) as (-> & Hs' & Hend).
  destruct (norm_spec bid bsz Hwf) as [Hlt Hpos]. unfold pstart. cbn [p_fid p_off p_bid p_size] in *.
  set (c := nchunks _ n) in *. rewrite blockSize_val, chunkHeaderSize_val in *. repeat split; lia.
Qed.

Lemma lf_pos_eq f : lf_bid f * blockSize + lf_bsz f = lf_size f /\ lf_bsz f < blockSize.
Proof. unfold lf_bid, lf_bsz. rewrite blockSize_val. lia. Qed.

Lemma wf_lfile_same f f' : lf_recs f' = lf_recs f -> lf_size f' = lf_size f -> wf_lfile f -> wf_lfile f'.
Proof. intros Hr Hs Hwf r p Hin. rewrite Hr in Hin. rewrite Hs. exact (Hwf r p Hin). Qed.

Definition synced (f : lfile) : lfile :=
  mkLf (lf_recs f) (lf_size f) (lf_phys f) (lf_mapend f) (lf_torn f) (lf_size f).
Definition closed (f : lfile) : lfile := mkLf (lf_recs f) (lf_size f) (lf_size f) 0 (lf_torn f) (lf_size f).
Definition reset (f : lfile) : lfile := mkLf (lf_recs f) (lf_size f) (lf_size f) 0 (lf_torn f) (lf_durable f).
(* the file behind a fresh handle; neither the name nor whether the file existed matters *)
Definition opened (io : N) (f : lfile) : lfile := fst (h_open io (FData 0) true f).

Lemma h_sync_eq nm f : h_sync nm f = (synced f, [EvSync nm]).
Proof. reflexivity. Qed.
Lemma h_reset_eq nm f : h_reset nm f = (reset f, [EvTrunc nm (lf_size f)]).
Proof. reflexivity. Qed.
Lemma h_close_fst io nm f : fst (h_close io nm f) = closed f.
Proof. unfold h_close. destruct (io =? io_MMap); reflexivity. Qed.
Lemma h_remap_fst_name nm nm' f base n : fst (h_remap nm f base n) = fst (h_remap nm' f base n).
Proof. unfold h_remap. destruct (_ <=? _); [reflexivity|]. destruct (_ <? _); reflexivity. Qed.
Lemma h_open_fst io nm ex f : fst (h_open io nm ex f) = opened io f.
Proof.
  unfold opened, h_open. destruct (io =? io_MMap); [|reflexivity].
  pose proof (h_remap_fst_name nm (FData 0) (mkLf (lf_recs f) (lf_phys f) (lf_phys f) 0 (lf_torn f) (lf_durable f))
                (lf_phys f) mmapBlockSize) as H.
  destruct (h_remap nm _ _ _), (h_remap (FData 0) _ _ _). exact H.
Qed.

(* a read through the handle: nothing under standard I/O; under memory-mapped I/O the extent of the
   file and of its mapping may grow *)
Definition remapped (io : N) (f f' : lfile) : Prop :=
  lf_recs f' = lf_recs f /\ lf_size f' = lf_size f /\ lf_torn f' = lf_torn f /\ lf_durable f' = lf_durable f /\
  ((io =? io_MMap) = false -> f' = f).
Lemma remapped_refl io f : remapped io f f.
Proof. repeat split. Qed.
Lemma remapped_trans io f g h : remapped io f g -> remapped io g h -> remapped io f h.
Proof.
  intros (A1 & A2 & A3 & A4 & A5) (B1 & B2 & B3 & B4 & B5).
  repeat split; try congruence. intros E. rewrite (B5 E). exact (A5 E).
Qed.
Lemma remapped_wf io f f' : remapped io f f' -> wf_lfile f -> wf_lfile f'.
Proof. intros (Hr & Hs & _). exact (wf_lfile_same f f' Hr Hs). Qed.

Lemma h_remap_remapped nm f base n : remapped io_MMap f (fst (h_remap nm f base n)).
Proof.
  unfold h_remap. destruct (_ <=? _); [apply remapped_refl|].
  destruct (_ <? _); repeat split; discriminate.
Qed.
Lemma h_read_remapped io nm f off n : remapped io f (fst (h_read io nm f off n)).
Proof.
  unfold h_read. destruct (io =? io_MMap) eqn:E; [|apply remapped_refl].
  apply N.eqb_eq in E. subst io. apply h_remap_remapped.
Qed.
Lemma scan_touch_remapped io nm f : remapped io f (fst (scan_touch io nm f)).
Proof. unfold scan_touch. destruct (lf_size f =? 0); [apply remapped_refl|apply h_read_remapped]. Qed.

Lemma h_write_fields io nm f rs n :
  lf_recs (fst (h_write io nm f rs n)) = lf_recs f ++ rs /\
  lf_size (fst (h_write io nm f rs n)) = lf_size f + n /\
  lf_torn (fst (h_write io nm f rs n)) = lf_torn f /\
  lf_durable (fst (h_write io nm f rs n)) = lf_durable f.
Proof.
  unfold h_write. destruct (io =? io_MMap); [|repeat split].
  destruct (h_remap_remapped nm f (lf_size f) n) as (H1 & H2 & H3 & H4 & _).
  destruct (h_remap nm f (lf_size f) n) as [f1 evs]. cbn [fst lf_recs lf_size lf_torn lf_durable] in *.
  rewrite H1, H2. auto.
Qed.
Lemma opened_fields io f :
  lf_recs (opened io f) = lf_recs f /\ lf_size (opened io f) = lf_phys f /\
  lf_torn (opened io f) = lf_torn f /\ lf_durable (opened io f) = lf_durable f.
Proof.
  unfold opened, h_open. destruct (io =? io_MMap); [|repeat split].
  set (f0 := mkLf _ _ _ _ _ _).
  destruct (h_remap_remapped (FData 0) f0 (lf_phys f) mmapBlockSize) as (H1 & H2 & H3 & H4 & _).
  destruct (h_remap (FData 0) f0 (lf_phys f) mmapBlockSize) as [f1 evs]. cbn [fst] in *. auto.
Qed.

Lemma if_sync_fst (s : bool) nm a : fst (if s then h_sync nm a else (a, [])) = if s then synced a else a.
Proof. destruct s; reflexivity. Qed.
Lemma if_synced_fields (s : bool) a :
  lf_recs (if s then synced a else a) = lf_recs a /\ lf_size (if s then synced a else a) = lf_size a /\
  lf_torn (if s then synced a else a) = lf_torn a.
Proof. destruct s; repeat split. Qed.

Lemma lookup_app_gen rs out b o :
  lf_lookup (rs ++ out) b o =
    match lf_lookup rs b o with Some x => Some x | None => lf_lookup out b o end.
Proof.
  induction rs as [|[r0 p0] rs IH]; cbn [app lf_lookup]; [reflexivity|].
  destruct ((p_bid p0 =? b) && (p_off p0 =? o)); [reflexivity|exact IH].
Qed.

Lemma lookup_none_beyond rs sz b o :
  (forall r p, In (r, p) rs -> pstart p < sz /\ p_off p < blockSize) ->
  sz <= b * blockSize + o -> o < blockSize -> lf_lookup rs b o = None.
Proof.
  intros Hwf Hsz Ho. induction rs as [|[r0 p0] rs IH]; [reflexivity|].
  cbn [lf_lookup].
  destruct ((p_bid p0 =? b) && (p_off p0 =? o)) eqn:E.
  - exfalso. destruct (Hwf r0 p0 (or_introl eq_refl)) as [H1 H2]. unfold pstart in H1. lia.
  - apply IH. intros r p Hin. apply (Hwf r p). right. exact Hin.
Qed.

Lemma lookup_in rs b o r : lf_lookup rs b o = Some r -> exists p, In (r, p) rs /\ p_bid p = b /\ p_off p = o.
Proof.
  induction rs as [|[r0 p0] rs IH]; cbn [lf_lookup]; [discriminate|].
  destruct ((p_bid p0 =? b) && (p_off p0 =? o)) eqn:E.
  - intros [= ->]. exists p0. split; [left; reflexivity|lia].
  - intros H. destruct (IH H) as (p & Hin & Hb). exists p. split; [right; exact Hin|exact Hb].
Qed.

Lemma frame_all_spec : forall rs fid bid bsz out bid' bsz',
  bsz < blockSize -> frame_all fid bid bsz rs = (out, bid', bsz') ->
  map fst out = rs /\ bsz' < blockSize /\ bid * blockSize + bsz <= bid' * blockSize + bsz' /\
  (forall r p, In (r, p) out ->
     p_fid p = fid /\ bid * blockSize + bsz <= pstart p /\ pstart p < bid' * blockSize + bsz' /\ p_off p < blockSize /\
     pstart p + p_size p <= bid' * blockSize + bsz' /\ 0 < p_size p) /\
  (forall i r p, nth_error out i = Some (r, p) -> lf_lookup out (p_bid p) (p_off p) = Some r).
Proof.
  induction rs as [|r0 rs IH]; intros fid bid bsz out bid' bsz' Hwf Hfa; cbn [frame_all] in Hfa.
  - injection Hfa as <- <- <-. split; [reflexivity|]. split; [exact Hwf|]. split; [lia|].
    split; [intros r p []|]. intros [|i] r p H; discriminate.
  - destruct (frame fid bid bsz (rec_len r0)) as [[p0 b1] s1] eqn:Hfr.
    destruct (frame_all fid b1 s1 rs) as [[out1 b2] s2] eqn:Hrest.
    injection Hfa as <- <- <-.
    destruct (frame_props _ _ _ _ _ _ _ Hwf (rec_len_pos r0) Hfr) as (Hfid & Hoff & Hge & Hend & Hsz & Hs1).
    destruct (IH fid b1 s1 out1 b2 s2 Hs1 Hrest) as (Hmap & Hs2 & Hmono & Hall & Hnth).
    assert (Hskip : forall r p, In (r, p) out1 -> (p_bid p0 =? p_bid p) && (p_off p0 =? p_off p) = false).
    { intros r p Hin. destruct (Hall r p Hin) as (_ & Hlo & _ & Hpo & _).
      destruct ((p_bid p0 =? p_bid p) && (p_off p0 =? p_off p)) eqn:E; [|reflexivity].
      exfalso. unfold pstart in *. assert (p_bid p0 = p_bid p /\ p_off p0 = p_off p) as [E1 E2] by lia.
      rewrite E1, E2 in Hend. lia. }
    split; [cbn [map fst]; rewrite Hmap; reflexivity|].
    split; [exact Hs2|]. split; [lia|]. split.
    + intros r p [Heq|Hin].
      * injection Heq as <- <-. repeat split; try assumption; lia.
      * destruct (Hall r p Hin) as (H1 & H2 & H3 & H4 & H5 & H6). repeat split; try assumption; lia.
    + intros [|i] r p Hn; cbn [nth_error] in Hn; cbn [lf_lookup].
      * injection Hn as <- <-. rewrite !N.eqb_refl. reflexivity.
      * assert (Hin : In (r, p) out1) by (eapply nth_error_In; eassumption).
        rewrite (Hskip r p Hin). eapply Hnth. eassumption.
Qed.

Lemma lf_append_all_spec io nm fid f rs f' ps evs :
  wf_lfile f -> lf_append_all io nm fid f rs = (f', ps, evs) ->
  exists out, lf_recs f' = lf_recs f ++ out /\ map fst out = rs /\ map snd out = ps /\ wf_lfile f' /\
    (forall r p, In (r, p) out -> p_fid p = fid /\ lf_lookup (lf_recs f) (p_bid p) (p_off p) = None) /\
    (forall i r p, nth_error out i = Some (r, p) -> lf_lookup out (p_bid p) (p_off p) = Some r) /\
    lf_size f <= lf_size f'.
Proof.
  intros Hwf Happ. unfold lf_append_all in Happ.
  destruct (frame_all fid (lf_bid f) (lf_bsz f) rs) as [[out b'] s'] eqn:Hfa.
  set (n := b' * blockSize + s' - lf_size f) in *.
  destruct (h_write_fields io nm f out n) as (Hrecs & Hsize & _).
  destruct (h_write io nm f out n) as [f1 ev1]. cbn [fst] in *.
  injection Happ as <- <- <-.
  destruct (lf_pos_eq f) as [Hcur Hbsz].
  destruct (frame_all_spec _ _ _ _ _ _ _ Hbsz Hfa) as (Hmap & Hs' & Hmono & Hall & Hnth).
  exists out. split; [exact Hrecs|]. split; [exact Hmap|]. split; [reflexivity|]. split; [|split; [|split; [exact Hnth|rewrite Hsize; unfold n; lia]]].
  - intros r p Hin. rewrite Hrecs in Hin. rewrite Hsize. apply in_app_or in Hin. destruct Hin as [Hin|Hin].
    + destruct (Hwf r p Hin) as (H1 & H2 & H3 & H4). repeat split; try assumption; unfold n; lia.
    + destruct (Hall r p Hin) as (_ & H1 & H2 & H3 & H4 & H5). repeat split; try assumption; unfold n; lia.
  - intros r p Hin. destruct (Hall r p Hin) as (H0 & H1 & H2 & H3 & _). split; [exact H0|].
    apply (lookup_none_beyond _ (lf_size f)); [|unfold pstart in H1; lia|exact H3].
    intros r1 p1 Hin1. destruct (Hwf r1 p1 Hin1) as (A & B & _). auto.
Qed.

Lemma lookup_after_append rs out b o x : lf_lookup rs b o = Some x -> lf_lookup (rs ++ out) b o = Some x.
Proof. intros H. rewrite lookup_app_gen, H. reflexivity. Qed.
Lemma lookup_new rs r p :
  lf_lookup rs (p_bid p) (p_off p) = None -> lf_lookup (rs ++ [(r, p)]) (p_bid p) (p_off p) = Some r.
Proof. intros H. rewrite lookup_app_gen, H. cbn [lf_lookup]. rewrite !N.eqb_refl. reflexivity. Qed.

Lemma older_get_set o id f id' :
  older_get (older_set o id f) id' = if id' =? id then Some f else older_get o id'.
Proof.
  induction o as [|[i g] o IH]; cbn [older_set older_get].
  - destruct (id =? id') eqn:E; destruct (id' =? id) eqn:E2; try lia; reflexivity.
  - destruct (i =? id) eqn:E1.
    + cbn [older_get]. assert (i = id) by lia. subst i.
      destruct (id =? id') eqn:E; destruct (id' =? id) eqn:E2; try lia; reflexivity.
    + destruct (id <? i) eqn:E2.
      * cbn [older_get]. destruct (id =? id') eqn:E; destruct (id' =? id) eqn:E3; try lia; reflexivity.
      * cbn [older_get]. destruct (i =? id') eqn:E3.
        -- destruct (id' =? id) eqn:E4; [lia|reflexivity].
        -- exact IH.
Qed.
Lemma older_get_some_in o id f : older_get o id = Some f -> In (id, f) o.
Proof.
  induction o as [|[i g] o IH]; cbn [older_get]; [discriminate|].
  destruct (i =? id) eqn:E; [intros [= ->]; left; f_equal; lia|intros H; right; auto].
Qed.
Lemma in_older_set o id f x : In x (older_set o id f) -> x = (id, f) \/ In x o.
Proof.
  induction o as [|[i g] o IH]; cbn [older_set]; [intros [<-|[]]; auto|].
  destruct (i =? id); [intros [<-|H]; [left; reflexivity|right; right; exact H]|].
  destruct (id <? i); [intros [<-|H]; [left; reflexivity|right; exact H]|].
  intros [<-|H]; [right; left; reflexivity|]. destruct (IH H); [left; assumption|right; right; assumption].
Qed.
Lemma older_set_Forall (P : N * lfile -> Prop) o id f : Forall P o -> P (id, f) -> Forall P (older_set o id f).
Proof.
  intros Ho Hf. apply Forall_forall. intros x Hin.
  destruct (in_older_set _ _ _ _ Hin) as [->|Hx]; [exact Hf|]. rewrite Forall_forall in Ho. exact (Ho x Hx).
Qed.

Lemma Forall2_ids (P : N * lfile -> N * lfile -> Prop) a b :
  (forall x y, P x y -> fst x = fst y) -> Forall2 P a b -> map fst a = map fst b.
Proof. intros H. induction 1 as [|x y a b Hxy _ IH]; [reflexivity|]. cbn [map]. rewrite (H x y Hxy), IH. reflexivity. Qed.

Definition map_files (g : lfile -> lfile) (l : list (N * lfile)) : list (N * lfile) :=
  map (fun x => (fst x, g (snd x))) l.
Lemma map_files_ids g l : map fst (map_files g l) = map fst l.
Proof. unfold map_files. rewrite map_map. reflexivity. Qed.
Lemma in_map_files g l id f' : In (id, f') (map_files g l) <-> exists f, In (id, f) l /\ f' = g f.
Proof.
  unfold map_files. rewrite in_map_iff. split.
  - intros ([i f] & [= <- <-] & Hin). eauto.
  - intros (f & Hin & ->). exists (id, f). auto.
Qed.
Lemma older_get_map_files g l id : older_get (map_files g l) id = option_map g (older_get l id).
Proof. induction l as [|[i f] l IH]; cbn [map_files map older_get fst snd]; [reflexivity|]. destruct (i =? id); [reflexivity|exact IH]. Qed.
Lemma older_set_map_files g l id f : older_set (map_files g l) id (g f) = map_files g (older_set l id f).
Proof.
  induction l as [|[i h] l IH]; cbn [map_files map older_set fst snd]; [reflexivity|].
  destruct (i =? id); [reflexivity|]. destruct (id <? i); [reflexivity|]. cbn [map fst snd]. f_equal. exact IH.
Qed.

Lemma close_all_fst io l : fst (close_all io l) = map_files closed l.
Proof.
  induction l as [|[id f] l IH]; cbn [close_all map_files map fst snd]; [reflexivity|].
  rewrite <- (h_close_fst io (FData id) f). destruct (h_close io (FData id) f), (close_all io l).
  cbn [fst] in *. rewrite IH. reflexivity.
Qed.
Lemma ms_close_older_fst io l : fst (ms_close_older io l) = map_files closed l.
Proof.
  induction l as [|[id f] l IH]; cbn [ms_close_older map_files map fst snd]; [reflexivity|].
  rewrite <- (h_close_fst io (MData id) f). destruct (h_close io (MData id) f), (ms_close_older io l).
  cbn [fst] in *. rewrite IH. reflexivity.
Qed.
Lemma reset_all_fst l : fst (reset_all l) = map_files reset l.
Proof.
  induction l as [|[id f] l IH]; cbn [reset_all map_files map fst snd h_reset]; [reflexivity|].
  destruct (reset_all l). cbn [fst] in *. rewrite IH. reflexivity.
Qed.
Lemma open_all_fst io l : fst (open_all io l) = map_files (opened io) l.
Proof.
  induction l as [|[id f] l IH]; cbn [open_all map_files map fst snd]; [reflexivity|].
  rewrite <- (h_open_fst io (FData id) true f). destruct (h_open io (FData id) true f), (open_all io l).
  cbn [fst] in *. rewrite IH. reflexivity.
Qed.

Lemma split_last_spec {A} (l : list A) :
  match split_last l with Some (i, z) => l = i ++ [z] | None => l = [] end.
Proof.
  induction l as [|x l IH]; [reflexivity|]. cbn [split_last]. destruct l as [|y l]; [reflexivity|].
  destruct (split_last (y :: l)) as [[i z]|]; [rewrite IH; reflexivity|discriminate].
Qed.

Lemma lf_append_all_fields io nm fid f rs a ps ev : lf_append_all io nm fid f rs = (a, ps, ev) ->
  lf_recs a = lf_recs f ++ combine rs ps /\ length ps = length rs /\
  lf_torn a = lf_torn f /\ lf_durable a = lf_durable f.
Proof.
  unfold lf_append_all. intros H.
  assert (Hfa : forall rs fid bid bsz, combine rs (map snd (fst (fst (frame_all fid bid bsz rs)))) = fst (fst (frame_all fid bid bsz rs))
                                       /\ length (fst (fst (frame_all fid bid bsz rs))) = length rs).
  { clear. induction rs as [|r rs IH]; intros fid bid bsz; cbn [frame_all]; [auto|].
    destruct (frame fid bid bsz (rec_len r)) as [[p b1] s1]. specialize (IH fid b1 s1).
    destruct (frame_all fid b1 s1 rs) as [[out b2] s2]. cbn [fst snd map combine length] in *.
    destruct IH as [-> ->]. auto. }
  specialize (Hfa rs fid (lf_bid f) (lf_bsz f)).
  destruct (frame_all fid (lf_bid f) (lf_bsz f) rs) as [[out b'] s']. cbn [fst] in Hfa.
  destruct (h_write_fields io nm f out (b' * blockSize + s' - lf_size f)) as (H1 & _ & H3 & H4).
  destruct (h_write io nm f out _) as [f1 ev1]. cbn [fst] in *. injection H as <- <- _.
  destruct Hfa as [-> <-]. rewrite map_length. auto.
Qed.
Lemma lf_append_single io nm fid f r :
  lf_append_all io nm fid f [r] = let '(a, p, ev) := lf_append io nm fid f r in (a, [p], ev).
Proof.
  unfold lf_append_all, lf_append. cbn [frame_all]. destruct (frame fid (lf_bid f) (lf_bsz f) (rec_len r)) as [[p b'] s'].
  destruct (h_write io nm f [(r, p)] _). reflexivity.
Qed.
Lemma lf_append_fields io nm fid f r a p ev : lf_append io nm fid f r = (a, p, ev) ->
  lf_recs a = lf_recs f ++ [(r, p)] /\ lf_torn a = lf_torn f /\ lf_durable a = lf_durable f.
Proof.
  intros H. pose proof (lf_append_single io nm fid f r) as Hs. rewrite H in Hs.
  destruct (lf_append_all_fields _ _ _ _ _ _ _ _ Hs) as (H1 & _ & H3 & H4). auto.
Qed.

Lemma lf_append_spec io nm fid f r f' p evs :
  wf_lfile f -> lf_append io nm fid f r = (f', p, evs) ->
  wf_lfile f' /\ lf_recs f' = lf_recs f ++ [(r, p)] /\ p_fid p = fid /\
  lf_lookup (lf_recs f) (p_bid p) (p_off p) = None /\ lf_size f <= lf_size f'.
Proof.
  intros Hwf Happ. pose proof (lf_append_single io nm fid f r) as Hs. rewrite Happ in Hs.
  destruct (lf_append_all_spec _ _ _ _ _ _ _ _ Hwf Hs) as (out & Hr & Hf & Hsn & Hwf' & Hfresh & _ & Hsz).
  assert (E : out = [(r, p)]) by (rewrite <- (combine_fst_snd out), Hf, Hsn; reflexivity). subst out.
  destruct (Hfresh r p (or_introl eq_refl)). auto.
Qed.
