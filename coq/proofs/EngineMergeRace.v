(* EngineMergeRace.v — Merge with writers racing the scan (C06): Put and Delete calls of other clients
   run between any two steps of the scan (model: Engine.db_merge_i).  The rewritten files then do not
   denote the mapping of any single instant, but: replaying the records written since the merge started
   over what they denote gives exactly the live mapping — the relation the adopting Open needs (MergeState).
   Argument, per key: a key no racing call touched keeps its index entry during the whole scan, so the scan
   treats its records as the sequential merge does; for a key some racing call touched, the last of the
   racing records decides its value whatever the rewritten files say. *)
From Coq Require Import ZArith Lia ZifyN ZifyNat ZifyBool Sorting.Sorted.
From KV Require Import Bytes GenConsts Chunk Record Engine Script BytesLemmas AMapLemmas ListLemmas
  EngineFiles EngineOps EngineInv EngineBatch EngineLog EngineRecover EngineOpen EngineMerge EngineKeep EngineMergeRun.
Open Scope N_scope.

Fixpoint s_mops (M : smap) (ops : list mop) : smap :=
  match ops with
  | [] => M
  | MPut k v :: rest => s_mops (fst (s_put M k v)) rest
  | MDel k :: rest => s_mops (fst (s_del M k)) rest
  end.
Lemma s_mops_app M a b : s_mops M (a ++ b) = s_mops (s_mops M a) b.
Proof. revert M. induction a as [|[k v|k] a IH]; intros M; cbn [app s_mops]; auto. Qed.

Definition haskey (L : list record) (k : bytes) : bool := existsb (fun r => bytes_eqb k (r_key r)) L.
Lemma haskey_app a b k : haskey (a ++ b) k = haskey a k || haskey b k.
Proof. unfold haskey. apply existsb_app. Qed.
Lemma haskey_app_false a b k : haskey (a ++ b) k = false -> haskey a k = false /\ haskey b k = false.
Proof. rewrite haskey_app. apply orb_false_iff. Qed.
Lemma haskey_single r k : haskey [r] k = bytes_eqb k (r_key r).
Proof. unfold haskey. cbn [existsb]. apply orb_false_r. Qed.

(* what the calls racing with the scan did between two of its steps: X are the records they appended (all plain);
   only keys of X may have changed in the index *)
Record race_step (d d' : db) (X : list record) : Prop := {
  rs_ext : extends d d';
  rs_log : log d' = log d ++ X;
  rs_plain : Forall (fun r => r_batch r = 0) X;
  rs_idx : forall k, haskey X k = false -> idx_get (d_index d') k = idx_get (d_index d) k;
  rs_keep : Keep d d';
  rs_cfg : d_cfg d' = d_cfg d }.

Lemma race_step_refl d : race_step d d [].
Proof. constructor; [apply extends_refl|apply app_nil_end|constructor|reflexivity|apply Keep_refl|reflexivity]. Qed.
Lemma race_step_trans a b c X Y : race_step a b X -> race_step b c Y -> race_step a c (X ++ Y).
Proof.
  intros [A1 A2 A3 A4 A5 A6] [B1 B2 B3 B4 B5 B6]. constructor.
  - eapply extends_trans; eassumption.
  - rewrite B2, A2, app_assoc. reflexivity.
  - apply Forall_app. auto.
  - intros k Hk. apply haskey_app_false in Hk. destruct Hk as [H1 H2]. rewrite (B4 k H2). exact (A4 k H1).
  - eapply Keep_trans; eassumption.
  - congruence.
Qed.

Lemma db_append_race d M r d1 p evs :
  LogInv d M -> r_batch r = 0 -> db_append d r = (d1, p, evs) ->
  LogInv (idx_upd d1 r p) (rec_apply M r) /\ race_step d (idx_upd d1 r p) [r].
Proof.
  intros HL Hb Happ. destruct (append_index_log d M r d1 p evs HL Hb Happ) as [HL' Hlog]. split; [exact HL'|].
  destruct (db_append_spec _ _ _ _ _ (LogInv_InvF _ _ HL) Happ) as (_ & Hext & _ & Hix1 & Hcfg).
  pose proof (idx_upd_index_only d1 r p) as Hio.
  constructor.
  - intros q x Hq. rewrite (rec_at_index_only _ _ Hio). exact (Hext _ _ Hq).
  - exact Hlog.
  - constructor; [exact Hb|constructor].
  - intros k Hk. rewrite haskey_single in Hk. unfold idx_get. rewrite idx_upd_index, Hix1.
    destruct (r_type r =? rt_Deleted); [rewrite amap_get_del by exact (proj1 (proj2 (LogInv_Inv _ _ HL)))|rewrite amap_get_put];
      rewrite Hk; reflexivity.
  - exact (Keep_trans _ _ _ (grows_keep _ _ _ (db_append_is_grows _ _ _ _ _ Happ)) (index_only_keep _ _ Hio)).
  - destruct Hio as (ix & t & rc & ->). exact Hcfg.
Qed.

Lemma db_put_race d M k v d' e evs :
  LogInv d M -> db_put d k v = (d', e, evs) ->
  LogInv d' (fst (s_put M k v)) /\ exists X, race_step d d' X.
Proof.
  intros HL Hp. unfold s_put.
  destruct (db_put_cases _ _ _ _ _ _ Hp) as [(-> & -> & _)|(-> & _ & d1 & p & Happ & ->)].
  - split; [exact HL|]. exists []. apply race_step_refl.
  - destruct (db_append_race d M (mkRec rt_Normal k v 0) d1 p evs HL eq_refl Happ) as [HL' HX]. eauto.
Qed.

Lemma db_delete_race d M k d' e evs :
  LogInv d M -> db_delete d k = (d', e, evs) ->
  LogInv d' (fst (s_del M k)) /\ exists X, race_step d d' X.
Proof.
  intros HL Hp. unfold s_del.
  destruct (db_delete_cases _ _ _ _ _ Hp) as [(-> & -> & _)|[(-> & Eg & -> & _)|(-> & _ & d1 & p & Happ & -> & _)]]; cbn [fst].
  - split; [exact HL|]. exists []. apply race_step_refl.
  - (* the key is absent from the index, hence from M: nothing to delete *)
    pose proof (R_get d M k (LogInv_R _ _ HL)) as Hg. rewrite Eg in Hg. rewrite (amap_del_absent M k Hg).
    split; [exact HL|]. exists []. apply race_step_refl.
  - destruct (db_append_race d M (mkRec rt_Deleted k [] 0) d1 p evs HL eq_refl Happ) as [HL' HX]. eauto.
Qed.

Lemma run_mops_race : forall ops d M d' evs,
  LogInv d M -> run_mops d ops = (d', evs) ->
  LogInv d' (s_mops M ops) /\ exists X, race_step d d' X.
Proof.
  induction ops as [|[k v|k] ops IH]; intros d M d' evs HL Hr; cbn [run_mops s_mops] in *.
  - injection Hr as <- _. split; [exact HL|]. exists []. apply race_step_refl.
  - destruct (db_put d k v) as [[d1 e1] ev1] eqn:Hp. destruct (run_mops d1 ops) as [d2 ev2] eqn:Hr2. injection Hr as <- _.
    destruct (db_put_race d M k v d1 e1 ev1 HL Hp) as [HL1 [X HX]].
    destruct (IH d1 _ d2 ev2 HL1 Hr2) as [HL2 [Y HY]].
    split; [exact HL2|]. exists (X ++ Y). eapply race_step_trans; eassumption.
  - destruct (db_delete d k) as [[d1 e1] ev1] eqn:Hp. destruct (run_mops d1 ops) as [d2 ev2] eqn:Hr2. injection Hr as <- _.
    destruct (db_delete_race d M k d1 e1 ev1 HL Hp) as [HL1 [X HX]].
    destruct (IH d1 _ d2 ev2 HL1 Hr2) as [HL2 [Y HY]].
    split; [exact HL2|]. exists (X ++ Y). eapply race_step_trans; eassumption.
Qed.

Lemma touch_race io d M fid f f' :
  LogInv d M -> older_get (d_older d) fid = Some f -> remapped io f f' ->
  LogInv (set_older d (older_set (d_older d) fid f')) M /\ race_step d (set_older d (older_set (d_older d) fid f')) [].
Proof.
  intros HL Hg Hr. pose proof (touched_by_older io d fid f f' Hg Hr) as Ht.
  pose proof (proj1 (log_touched _ _ (LogInv_InvO _ _ HL) Ht)) as Hlog. split; [exact (LogInv_touched _ _ _ HL Ht)|].
  constructor; [|rewrite app_nil_r; exact Hlog|constructor|reflexivity|exact (touched_keep _ _ Ht)|reflexivity].
  intros q x Hq. rewrite (rec_at_touched _ _ Ht). exact Hq.
Qed.

Definition keyf (k : bytes) (r : record) : bool := bytes_eqb k (r_key r).

(* a part of the scan that started with the output state m has ended with res: the records W it has written
   are, key by key, those of T (what the sequential merge over the snapshot writes), for every key that
   none of the records PL written meanwhile has *)
Definition scan_post (nm : N) (m : mstate) (res : merge_step_res) (PL T : list record) : Prop :=
  match res with
  | MsOk m' => MF m' /\ MH m' /\ ms_active_id m' < nm /\
               exists W, map fst (ms_recs m') = map fst (ms_recs m) ++ W /\
                 forall k, haskey PL k = false -> filter (keyf k) W = filter (keyf k) T
  | MsErr _ _ => True
  end.

Lemma scan_post_nil nm m PL : MF m -> MH m -> ms_active_id m < nm -> scan_post nm m (MsOk m) PL [].
Proof. intros HF HH Hlt. split; [exact HF|]. split; [exact HH|]. split; [exact Hlt|]. exists []. split; [apply app_nil_end|reflexivity]. Qed.

Lemma scan_post_app nm m m1 res PL X T1 T2 :
  scan_post nm m (MsOk m1) PL T1 -> scan_post nm m1 res (PL ++ X) T2 -> scan_post nm m res (PL ++ X) (T1 ++ T2).
Proof.
  intros (_ & _ & _ & W1 & HW1 & HfW1) H2. destruct res as [m'|]; [|exact I].
  destruct H2 as (I1 & I2 & I3 & W2 & HW2 & HfW2).
  split; [exact I1|]. split; [exact I2|]. split; [exact I3|]. exists (W1 ++ W2).
  split; [rewrite HW2, HW1, <- app_assoc; reflexivity|].
  intros k Hk. rewrite !filter_app, (HfW2 k Hk), (HfW1 k (proj1 (haskey_app_false _ _ _ Hk))). reflexivity.
Qed.

Lemma merge_file_i_cons c fid nm d m r p rs sched :
  merge_file_i c fid nm d m ((r, p) :: rs) sched =
  let '(d1, ev0) := run_mops d (hd [] sched) in
  if live_in (d_index d1) fid (r, p) then
    let '(m1, np, ev1) := ms_append c m (plainify r) in
    if nm <=? ms_active_id m1 then (d1, MsErr EMergeOutputTooLarge m1, tl sched, ev0 ++ ev1) else
    let '(m2, ev2) := ms_hint_append c m1 (r_key r) np in
    let '(d2, res, sched'', ev3) := merge_file_i c fid nm d1 m2 rs (tl sched) in (d2, res, sched'', ev0 ++ ev1 ++ ev2 ++ ev3)
  else let '(d2, res, sched'', ev3) := merge_file_i c fid nm d1 m rs (tl sched) in (d2, res, sched'', ev0 ++ ev3).
Proof.
  cbn [merge_file_i]. destruct (run_mops d (hd [] sched)) as [d1 ev0]. unfold live_in. cbn [fst snd].
  destruct (idx_get (d_index d1) (r_key r)); reflexivity.
Qed.

Lemma merge_file_i_keeps (P : db -> Prop) :
  (forall ops d d' evs, P d -> run_mops d ops = (d', evs) -> P d') ->
  forall c fid nm rs d m sched d' res sched' evs,
    P d -> merge_file_i c fid nm d m rs sched = (d', res, sched', evs) -> P d'.
Proof.
  intros Hops c fid nm. induction rs as [|[r p] rs IH]; intros d m sched d' res sched' evs HP H.
  - injection H as <- _ _ _. exact HP.
  - rewrite merge_file_i_cons in H. destruct (run_mops d (hd [] sched)) as [d1 ev0] eqn:Hr.
    pose proof (Hops _ _ _ _ HP Hr) as HP1.
    destruct (live_in (d_index d1) fid (r, p)).
    + destruct (ms_append c m (plainify r)) as [[m1 np] ev1].
      destruct (nm <=? ms_active_id m1); [injection H as <- _ _ _; exact HP1|].
      destruct (ms_hint_append c m1 (r_key r) np) as [m2 ev2].
      destruct (merge_file_i c fid nm d1 m2 rs (tl sched)) as [[[d2 res2] s2] ev3] eqn:Hrec.
      injection H as <- _ _ _. exact (IH _ _ _ _ _ _ _ HP1 Hrec).
    + destruct (merge_file_i c fid nm d1 m rs (tl sched)) as [[[d2 res2] s2] ev3] eqn:Hrec.
      injection H as <- _ _ _. exact (IH _ _ _ _ _ _ _ HP1 Hrec).
Qed.

Lemma merge_files_i_keeps (P : db -> Prop) c :
  (forall ops d d' evs, P d -> run_mops d ops = (d', evs) -> P d') ->
  (forall d fid f, P d -> older_get (d_older d) fid = Some f ->
     P (set_older d (older_set (d_older d) fid (fst (scan_touch (c_io c) (FData fid) f))))) ->
  forall nm order d m sched d' res evs, P d -> merge_files_i c d order nm m sched = (d', res, evs) -> P d'.
Proof.
  intros Hops Htouch nm. induction order as [|fid order IH]; intros d m sched d' res evs HP H; cbn [merge_files_i] in H.
  - injection H as <- _ _. exact HP.
  - destruct (older_get (d_older d) fid) as [f|] eqn:Hg; [|exact (IH _ _ _ _ _ _ HP H)].
    pose proof (Htouch d fid f HP Hg) as HP1. destruct (scan_touch (c_io c) (FData fid) f) as [f' ev0]. cbn [fst] in HP1.
    destruct (merge_file_i c fid nm _ m (lf_recs f') sched) as [[[d2 res1] sched1] ev1] eqn:Hmf.
    pose proof (merge_file_i_keeps P Hops _ _ _ _ _ _ _ _ _ _ _ HP1 Hmf) as HP2.
    destruct res1 as [m1|e1 m1]; [|injection H as <- _ _; exact HP2].
    destruct (merge_files_i c d2 order nm m1 sched1) as [[d3 res2] ev2] eqn:Hrest. injection H as <- _ _.
    exact (IH _ _ _ _ _ _ HP2 Hrest).
Qed.

(* ix0: the index when the scan started; PL: the records written since *)
Lemma merge_file_i_spec c fid nm ix0 : forall rs d M PL m sched d' res sched' evs,
  LogInv d M -> (forall k, haskey PL k = false -> idx_get (d_index d) k = idx_get ix0 k) ->
  located d fid rs -> MF m -> MH m -> ms_active_id m < nm ->
  merge_file_i c fid nm d m rs sched = (d', res, sched', evs) ->
  exists n X, LogInv d' (s_mops M (concat (firstn n sched))) /\ sched' = skipn n sched /\
    race_step d d' X /\ scan_post nm m res (PL ++ X) (rewritten ix0 fid rs).
Proof.
  induction rs as [|[r p] rs IH]; intros d M PL m sched d' res sched' evs HL Hidx Hloc HF HH Hlt Hm.
  - injection Hm as <- <- <- _. exists 0%nat, []. split; [exact HL|]. split; [reflexivity|]. split; [apply race_step_refl|].
    apply scan_post_nil; assumption.
  - rewrite merge_file_i_cons in Hm.
    destruct (run_mops d (hd [] sched)) as [d1 ev0] eqn:Hrm.
    destruct (run_mops_race _ _ _ _ _ HL Hrm) as [HL1 [X1 HX1]].
    assert (Hidx1 : forall k, haskey (PL ++ X1) k = false -> idx_get (d_index d1) k = idx_get ix0 k).
    { intros k Hk. apply haskey_app_false in Hk. rewrite (rs_idx _ _ _ HX1 k (proj2 Hk)). exact (Hidx k (proj1 Hk)). }
    apply (located_extends _ _ _ _ (rs_ext _ _ _ HX1)) in Hloc.
    pose proof (Forall_inv Hloc) as Hloc1. pose proof (Forall_inv_tail Hloc) as Hloc2. cbn [fst snd] in Hloc1.
    rewrite rewritten_cons. cbn [fst].
    (* the rest of the scan, once this record has been dealt with and has left the output state mm *)
    assert (Htail : forall mm ev3,
              scan_post nm m (MsOk mm) (PL ++ X1) (if live_in ix0 fid (r, p) then [plainify r] else []) ->
              merge_file_i c fid nm d1 mm rs (tl sched) = (d', res, sched', ev3) ->
              exists n X, LogInv d' (s_mops M (concat (firstn n sched))) /\ sched' = skipn n sched /\ race_step d d' X /\
                scan_post nm m res (PL ++ X) ((if live_in ix0 fid (r, p) then [plainify r] else []) ++ rewritten ix0 fid rs)).
    { intros mm ev3 Hone Hrest. pose proof Hone as (HFm & HHm & Hltm & _).
      destruct (IH d1 _ (PL ++ X1) mm (tl sched) d' res sched' ev3 HL1 Hidx1 Hloc2 HFm HHm Hltm Hrest)
        as (n & X & HL2 & Hs2 & HX & Hpost).
      exists (S n), (X1 ++ X). rewrite concat_firstn_S, s_mops_app, skipn_tl, app_assoc.
      split; [exact HL2|]. split; [exact Hs2|]. split; [exact (race_step_trans _ _ _ _ _ HX1 HX)|].
      exact (scan_post_app _ _ _ _ _ _ _ _ Hone Hpost). }
    (* for a key no racing call has touched, the index now says of this record what the index said at the start *)
    assert (Hone : forall k, haskey (PL ++ X1) k = false ->
              filter (keyf k) (if live_in (d_index d1) fid (r, p) then [plainify r] else []) =
              filter (keyf k) (if live_in ix0 fid (r, p) then [plainify r] else [])).
    { intros k Hk. destruct (keyf k (plainify r)) eqn:Ek.
      - apply bytes_eqb_eq in Ek. cbn [plainify r_key] in Ek. subst k. unfold live_in. cbn [fst snd].
        rewrite (Hidx1 _ Hk). reflexivity.
      - destruct (live_in (d_index d1) fid (r, p)), (live_in ix0 fid (r, p)); cbn [filter]; rewrite ?Ek; reflexivity. }
    destruct (live_in (d_index d1) fid (r, p)) eqn:El.
    + (* rewritten: it is the record the index points to now, hence no tombstone *)
      destruct (live_rec d1 fid r p (LogInv_Inv _ _ HL1) Hloc1 El) as (_ & _ & _ & Hty).
      destruct (ms_append c m (plainify r)) as [[m1 np] ev1] eqn:Happ.
      destruct (nm <=? ms_active_id m1) eqn:Enm.
      { injection Hm as <- <- <- _. exists 1%nat, X1. rewrite concat_firstn_S, skipn_tl. cbn [firstn concat skipn]. rewrite app_nil_r.
        split; [exact HL1|]. split; [reflexivity|]. split; [exact HX1|exact I]. }
      destruct (ms_hint_append c m1 (r_key r) np) as [m2 ev2] eqn:Hha.
      destruct (ms_emit _ _ (plainify r) _ _ _ _ _ HF HH (conj eq_refl Hty) Happ Hha) as (HF2 & HH2 & Hrecs2 & Hid2).
      destruct (merge_file_i c fid nm d1 m2 rs (tl sched)) as [[[d2 res2] sched2] ev3] eqn:Hrest. injection Hm as <- <- <- _.
      apply (Htail m2 ev3); [|exact Hrest]. split; [exact HF2|]. split; [exact HH2|]. split; [lia|].
      exists [plainify r]. split; [rewrite Hrecs2, map_app; reflexivity|exact Hone].
    + destruct (merge_file_i c fid nm d1 m rs (tl sched)) as [[[d2 res2] sched2] ev3] eqn:Hrest. injection Hm as <- <- <- _.
      apply (Htail m ev3); [|exact Hrest]. split; [exact HF|]. split; [exact HH|]. split; [exact Hlt|].
      exists []. split; [apply app_nil_end|exact Hone].
Qed.

Section Scan.
(* the records (with positions) of the input files when the scan started *)
Variable frecs0 : N -> list (record * pos).
(* OL: the records of the files below mid (the input of the merge, fixed); PL: what has been written since;
   ix0: the index when the scan started *)
Record scan_inv (mid : N) (ix0 : index) (OL : list record) (d : db) (PL : list record) : Prop := {
  si_frecs : forall x, x < mid -> frecs d x = frecs0 x;
  si_log : log d = OL ++ PL;
  si_lo : lo_lookup (d_older d) (N.to_nat mid) = OL;
  si_mid : mid <= d_active_id d;
  si_plain : Forall (fun r => r_batch r = 0) PL;
  si_idx : forall k, haskey PL k = false -> idx_get (d_index d) k = idx_get ix0 k }.

Lemma scan_inv_step mid ix0 OL d PL d' X :
  scan_inv mid ix0 OL d PL -> race_step d d' X -> scan_inv mid ix0 OL d' (PL ++ X).
Proof.
  intros [A0 A1 A2 A3 A4 A5] [B1 B2 B3 B4 B5 B6]. destruct (Keep_orecs mid d d' B5 A3) as [Hmid Hor]. constructor.
  - intros x Hx. rewrite (proj2 B5 x) by lia. exact (A0 x Hx).
  - rewrite B2, A1, app_assoc. reflexivity.
  - rewrite <- A2. apply lo_lookup_ext. intros x Hx. apply Hor. lia.
  - exact Hmid.
  - apply Forall_app. auto.
  - intros k Hk. apply haskey_app_false in Hk. rewrite (B4 k (proj2 Hk)). exact (A5 k (proj1 Hk)).
Qed.

(* the output of the sequential merge over the snapshot, file by file *)
Definition merged0 (ix0 : index) (order : list N) : list record :=
  concat (map (fun fid => rewritten ix0 fid (frecs0 fid)) order).

Lemma merge_files_i_spec c nm mid ix0 OL : forall order d M PL m sched d' res evs,
  LogInv d M -> scan_inv mid ix0 OL d PL -> Forall (fun x => x < mid) order ->
  MF m -> MH m -> ms_active_id m < nm ->
  merge_files_i c d order nm m sched = (d', res, evs) ->
  exists n X, LogInv d' (s_mops M (concat (firstn n sched))) /\ scan_inv mid ix0 OL d' (PL ++ X) /\ d_cfg d' = d_cfg d /\ match res with
    | MsOk m' => MF m' /\ MH m' /\ ms_active_id m' < nm /\ exists W, map fst (ms_recs m') = map fst (ms_recs m) ++ W /\ forall k, haskey (PL ++ X) k = false -> filter (keyf k) W = filter (keyf k) (merged0 ix0 order)
    | MsErr _ _ => True
    end.
Proof.
  induction order as [|fid order IH]; intros d M PL m sched d' res evs HL HS Hord HF HH Hlt Hm; cbn [merge_files_i] in Hm.
  - injection Hm as <- <- _. exists 0%nat, []. cbn [firstn concat s_mops]. rewrite app_nil_r.
    split; [exact HL|]. split; [exact HS|]. split; [reflexivity|exact (scan_post_nil nm m PL HF HH Hlt)].
  - pose proof (Forall_inv Hord) as Hfid. pose proof (Forall_inv_tail Hord) as Hord'. cbv beta in Hfid.
    change (merged0 ix0 (fid :: order)) with (rewritten ix0 fid (frecs0 fid) ++ merged0 ix0 order).
    rewrite <- (si_frecs _ _ _ _ _ HS fid Hfid).
    destruct (older_get (d_older d) fid) as [f|] eqn:Hg.
    2: { (* the file does not exist (any more): nothing to scan; at the snapshot it had no records either *)
         rewrite (frecs_none d fid Hg). exact (IH d M PL m sched d' res evs HL HS Hord' HF HH Hlt Hm). }
    rewrite (frecs_some d fid f Hg).
    pose proof (scan_touch_remapped (c_io c) (FData fid) f) as Hrm.
    destruct (scan_touch (c_io c) (FData fid) f) as [f' ev0]. cbn [fst] in Hrm. pose proof (proj1 Hrm) as Hr. rewrite <- Hr.
    destruct (touch_race (c_io c) d M fid f f' HL Hg Hrm) as [HL1 HX0].
    set (d1 := set_older d (older_set (d_older d) fid f')) in *.
    pose proof (scan_inv_step _ _ _ _ _ _ _ HS HX0) as HS1. rewrite app_nil_r in HS1.
    assert (Hloc : located d1 fid (lf_recs f')).
    { rewrite Hr, <- (frecs_some d fid f Hg), <- (proj2 (rs_keep _ _ _ HX0) fid) by (pose proof (si_mid _ _ _ _ _ HS); lia).
      exact (located_frecs d1 fid (proj1 (proj1 (proj1 HL1))) (proj1 (proj2 (proj2 (proj1 HL1))))). }
    destruct (merge_file_i c fid nm d1 m (lf_recs f') sched) as [[[d2 res1] sched1] ev1] eqn:Hmf.
    destruct (merge_file_i_spec c fid nm ix0 (lf_recs f') d1 M PL m sched d2 res1 sched1 ev1
                HL1 (si_idx _ _ _ _ _ HS1) Hloc HF HH Hlt Hmf) as (n1 & X1 & HL2 & Hs1 & HX1 & Hres1).
    pose proof (scan_inv_step _ _ _ _ _ _ _ HS1 HX1) as HS2.
    destruct res1 as [m1|e1 m1].
    2: { injection Hm as <- <- _. exists n1, X1. split; [exact HL2|]. split; [exact HS2|]. split; [exact (rs_cfg _ _ _ HX1)|exact I]. }
    pose proof Hres1 as (HF1 & HH1 & Hlt1 & _).
    destruct (merge_files_i c d2 order nm m1 sched1) as [[d3 res2] ev2] eqn:Hrest. injection Hm as <- <- _.
    destruct (IH d2 _ (PL ++ X1) m1 sched1 d3 res2 ev2 HL2 HS2 Hord' HF1 HH1 Hlt1 Hrest) as (n2 & X2 & HL3 & HS3 & Hcfg3 & Hres2).
    exists (n1 + n2)%nat, (X1 ++ X2). rewrite app_assoc, concat_firstn_add, s_mops_app, <- Hs1.
    split; [exact HL3|]. split; [exact HS3|]. split; [rewrite Hcfg3; exact (rs_cfg _ _ _ HX1)|].
    exact (scan_post_app _ _ _ _ _ _ _ _ Hres1 Hres2).
Qed.
End Scan.

Fixpoint lastop (L : list record) (k : bytes) (init : option bytes) : option bytes :=
  match L with
  | [] => init
  | r :: rest =>
    lastop rest k (if bytes_eqb k (r_key r) then (if r_type r =? rt_Deleted then None else Some (r_value r)) else init)
  end.

Lemma apply_recs_get : forall L m k, sorted m -> amap_get (s_apply_recs m L) k = lastop L k (amap_get m k).
Proof.
  induction L as [|r L IH]; intros m k Hs; [reflexivity|]. cbn [s_apply_recs fold_left lastop].
  change (fold_left rec_apply L (rec_apply m r)) with (s_apply_recs (rec_apply m r) L).
  rewrite (IH (rec_apply m r) k (s_apply_recs_sorted [r] m Hs)). f_equal. unfold rec_apply.
  destruct (r_type r =? rt_Deleted); [rewrite amap_get_del by exact Hs|rewrite amap_get_put]; reflexivity.
Qed.

Lemma lastop_haskey : forall L k a b, haskey L k = true -> lastop L k a = lastop L k b.
Proof.
  induction L as [|r L IH]; intros k a b H; [discriminate|]. unfold haskey in H. cbn [existsb] in H. cbn [lastop].
  destruct (bytes_eqb k (r_key r)) eqn:E; [reflexivity|]. cbn [orb] in H. apply IH. exact H.
Qed.
Lemma lastop_nokey : forall L k a, haskey L k = false -> lastop L k a = a.
Proof.
  induction L as [|r L IH]; intros k a H; [reflexivity|]. unfold haskey in H. cbn [existsb] in H. cbn [lastop].
  apply orb_false_iff in H. destruct H as [H1 H2]. rewrite H1. apply IH. exact H2.
Qed.
Lemma lastop_filter : forall L k init, lastop (filter (keyf k) L) k init = lastop L k init.
Proof.
  induction L as [|r L IH]; intros k init; [reflexivity|]. cbn [filter lastop]. unfold keyf at 1.
  destruct (bytes_eqb k (r_key r)) eqn:E; [cbn [lastop]; rewrite E; apply IH|apply IH].
Qed.

Lemma filter_key_get W T k : filter (keyf k) W = filter (keyf k) T ->
  amap_get (s_apply_recs [] W) k = amap_get (s_apply_recs [] T) k.
Proof. intros H. rewrite !apply_recs_get by constructor. rewrite <- (lastop_filter W), H. apply lastop_filter. Qed.

Lemma denote_by_key A B X : sorted A -> sorted B ->
  (forall k, haskey X k = false -> amap_get A k = amap_get B k) -> s_apply_recs A X = s_apply_recs B X.
Proof.
  intros HA HB H. apply sorted_ext; [apply s_apply_recs_sorted; exact HA|apply s_apply_recs_sorted; exact HB|].
  intros k. rewrite !apply_recs_get by assumption.
  destruct (haskey X k) eqn:E; [exact (lastop_haskey X k _ _ E)|]. rewrite !(lastop_nokey _ _ _ E). exact (H k E).
Qed.

Theorem db_merge_i_G d k M order pro sched d' k' e evs :
  G d k M -> Forall (fun x => x <= d_active_id d) order -> (e = None -> order_ok d order) ->
  db_merge_i d k order pro sched = (d', k', e, evs) ->
  exists n, G d' k' (s_mops M (pro ++ concat (firstn n sched))).
Proof.
  intros [HL _] Hbound Hord Hm.
  destruct (db_merge_i_shape _ _ _ _ _ _ _ _ _ Hm) as (d1 & ev1 & d1p & evp & d2 & res & ev5 & Hrot & Hpro & Hmf & _ & Hres).
  destruct (merge_rotate d M d1 ev1 HL Hrot) as (HL1 & Haid1 & Hemp1 & Hcov).
  set (mid := d_active_id d1) in *.
  assert (HS0 : scan_inv (frecs d1) mid (d_index d1) (log d1) d1 []).
  { constructor; [reflexivity|apply app_nil_end|exact (lo_lookup_all d1 (LogInv_InvO _ _ HL1) Hemp1)|apply N.le_refl|constructor|reflexivity]. }
  destruct (run_mops_race _ _ _ _ _ HL1 Hpro) as [HLp [Xp HXp]].
  pose proof (scan_inv_step _ _ _ _ _ _ _ _ HS0 HXp) as HSp. cbn [app] in HSp.
  destruct (ms_init_ok (io_of d)) as (HF0 & HH0 & Hrecs0).
  assert (Hlt0 : ms_active_id (ms_init (io_of d)) < mid) by (cbn [ms_init ms_active_id]; lia).
  assert (Hord' : Forall (fun x => x < mid) order).
  { eapply Forall_impl; [|exact Hbound]. intros x Hx. cbv beta in Hx. lia. }
  destruct (merge_files_i_spec (frecs d1) (d_cfg d) mid mid (d_index d1) (log d1) order d1p _ Xp _ sched d2 res ev5
              HLp HSp Hord' HF0 HH0 Hlt0 Hmf) as (n & X & HL2 & HS2 & _ & Hpost).
  exists n. rewrite s_mops_app. set (Mf := s_mops (s_mops M pro) (concat (firstn n sched))) in *.
  destruct res as [m|er m].
  2: { destruct Hres as (-> & _ & Hkm). split; [exact HL2|]. exact (MergeState_ignored d2 k' Mf _ Hkm (or_introl eq_refl)). }
  destruct Hres as ((evS & Hsy) & -> & Hkm). destruct Hpost as (HFm & HHm & Hlt & W & HW & HfW).
  apply (G_sync d2 k' Mf d' evS Hsy). split; [exact HL2|].
  set (M0 := s_apply_recs [] (map fst (ms_recs m))).
  destruct HS2 as [S0 S1 S2 S3 S4 S5].
  unfold MergeState. rewrite Hkm. right. exists mid, M0, (log d1), (Xp ++ X).
  split; [exact (ms_finish_ok m mid M0 HFm HHm Hlt eq_refl)|].
  split; [lia|]. split; [exact S3|]. split; [exact S1|]. split; [exact S2|].
  rewrite (sreplay_plain _ M0 [] S4). f_equal.
  assert (HMf : Mf = s_apply_recs M (Xp ++ X)).
  { pose proof (LogInv_sreplay d2 Mf HL2) as H2. rewrite S1, sreplay_app, (LogInv_sreplay d1 M HL1) in H2.
    cbn [fst snd] in H2. rewrite (sreplay_plain _ M [] S4) in H2. injection H2 as H2. symmetry. exact H2. }
  (* a key the racing calls touched is decided by them; an untouched key was merged as in the sequential
     merge of the snapshot, which denotes M *)
  rewrite HMf. apply denote_by_key; [apply s_apply_recs_sorted; constructor|exact (R_sorted d M (LogInv_Inv _ _ HL) (LogInv_R _ _ HL))|].
  intros key Hkey.
  destruct (merged_log_denotes d1 M order (LogInv_Inv _ _ HL1) (LogInv_InvP _ _ HL1) (LogInv_R _ _ HL1) Hemp1 (Hcov order (Hord eq_refl)))
    as (_ & Hden & _).
  rewrite <- Hden. unfold M0. rewrite HW, Hrecs0. exact (filter_key_get W _ key (HfW key Hkey)).
Qed.
