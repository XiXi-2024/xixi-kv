(* EngineKeep.v — no operation other than the adoption step of Open touches the records of a data
   file whose id is below the id of the active file: the files that took part in a merge keep
   their content until the merge is adopted. *)
From Coq Require Import ZArith Lia ZifyN ZifyNat ZifyBool Sorting.Sorted.
From KV Require Import Bytes GenConsts Chunk Record Engine Script EngineFiles EngineOps EngineBatch EngineLog EngineMerge.
Open Scope N_scope.

Definition orecs (fs : list (N * lfile)) (x : N) : list record :=
  match older_get fs x with Some f => file_log f | None => [] end.

Lemma orecs_frecs d x : orecs (d_older d) x = map fst (frecs d x).
Proof. unfold orecs, frecs. destruct (older_get (d_older d) x); reflexivity. Qed.

Definition Keep (d d' : db) : Prop :=
  d_active_id d <= d_active_id d' /\ forall x, x < d_active_id d -> frecs d' x = frecs d x.

Lemma Keep_refl d : Keep d d.
Proof. split; [apply N.le_refl|reflexivity]. Qed.
Lemma Keep_trans a b c : Keep a b -> Keep b c -> Keep a c.
Proof. intros [H1 E1] [H2 E2]. split; [lia|]. intros x Hx. rewrite E2, E1 by lia. reflexivity. Qed.
Lemma Keep_ext d d' : d_active_id d' = d_active_id d -> d_older d' = d_older d -> Keep d d'.
Proof. intros H1 H2. unfold Keep, frecs. rewrite H1, H2. split; [apply N.le_refl|reflexivity]. Qed.

Lemma Keep_orecs mid d d' : Keep d d' -> mid <= d_active_id d ->
  mid <= d_active_id d' /\ forall x, x < mid -> orecs (d_older d') x = orecs (d_older d) x.
Proof. intros [H1 H2] Hm. split; [lia|]. intros x Hx. rewrite !orecs_frecs, H2 by lia. reflexivity. Qed.

Lemma grows_keep d d' new : grows d d' new -> Keep d d'.
Proof.
  intros [(H1 & H2 & _)|(a & H1 & H2 & _)]; [exact (Keep_ext d d' H1 H2)|].
  split; [lia|]. intros x Hx. unfold frecs. rewrite H2, older_get_set. destruct (x =? d_active_id d) eqn:E; [lia|reflexivity].
Qed.

Lemma orecs_set_other o id f x : x <> id -> orecs (older_set o id f) x = orecs o x.
Proof. intros H. unfold orecs. rewrite older_get_set. destruct (x =? id) eqn:E; [lia|reflexivity]. Qed.
Lemma orecs_set_same o id f g x : older_get o id = Some g -> lf_recs f = lf_recs g -> orecs (older_set o id f) x = orecs o x.
Proof. intros Hg Hr. unfold orecs. rewrite older_get_set. destruct (x =? id) eqn:E; [|reflexivity].
  assert (x = id) by lia. subst x. rewrite Hg. unfold file_log. rewrite Hr. reflexivity. Qed.

Lemma touched_keep {io} d d' : touched_by io d d' -> Keep d d'.
Proof.
  intros (a & o & _ & Ho & ->). split; [apply N.le_refl|]. intros x _. unfold frecs. cbn [d_older].
  pose proof (files_touched_get _ _ _ Ho x) as H.
  destruct (older_get (d_older d) x), (older_get o x); try contradiction; [exact (proj1 H)|reflexivity].
Qed.

Lemma index_only_keep d d' : index_only d d' -> Keep d d'.
Proof. intros (ix & t & rc & ->). apply Keep_ext; reflexivity. Qed.

Lemma batch_flush_rotate_keep d b d' b' evs : batch_flush_rotate d b = (d', b', evs) -> Keep d d'.
Proof.
  intros H. destruct (batch_flush_rotate_shape _ _ _ _ _ H) as (d1 & ev1 & Hfl & ->).
  destruct (batch_flush_is_grows _ _ _ _ _ Hfl) as (ps & _ & Hg).
  exact (Keep_trans _ _ _ (grows_keep _ _ _ Hg) (grows_keep _ _ _ (rotated_grows d1))).
Qed.

(* every operation but Merge (which rotates first: see db_merge_out) and Restart; a batch must carry a non-zero id, as
   op_ok asks *)
Definition plain_op (o : op) : Prop :=
  match o with OpMerge _ => False | OpRestart _ => False | OpBatch _ id _ => id <> 0 | _ => True end.

Theorem step_keep d k o d' k' r evs : plain_op o -> step (d, k) o = ((d', k'), r, evs) -> Keep d d' /\ k' = k.
Proof.
  intros Hok Hst. apply step_cases in Hst.
  destruct o as [key v|key|key| | | | |sync id bops|order|c]; try (exfalso; exact Hok).
  - destruct Hst as (-> & e & Hp & _). split; [|reflexivity].
    destruct (db_put_cases _ _ _ _ _ _ Hp) as [(_ & -> & _)|(_ & _ & d1 & p & Happ & ->)]; [apply Keep_refl|].
    exact (Keep_trans _ _ _ (grows_keep _ _ _ (db_append_is_grows _ _ _ _ _ Happ)) (index_only_keep _ _ (idx_upd_index_only d1 _ p))).
  - destruct Hst as (-> & v & Hg & _). split; [exact (touched_keep _ _ (db_get_touched _ _ _ _ _ Hg))|reflexivity].
  - destruct Hst as (-> & e & Hp & _). split; [|reflexivity].
    destruct (db_delete_cases _ _ _ _ _ Hp) as [(_ & -> & _)|[(_ & _ & -> & _)|(_ & _ & d1 & p & Happ & -> & _)]]; try apply Keep_refl.
    exact (Keep_trans _ _ _ (grows_keep _ _ _ (db_append_is_grows _ _ _ _ _ Happ)) (index_only_keep _ _ (idx_upd_index_only d1 _ p))).
  - destruct Hst as (-> & -> & _). split; [apply Keep_refl|reflexivity].
  - destruct Hst as (-> & x & Hf & _). split; [exact (touched_keep _ _ (db_fold_aux_touched _ _ _ _ _ Hf))|reflexivity].
  - destruct Hst as (-> & -> & _). split; [apply Keep_refl|reflexivity].
  - destruct Hst as (-> & Hs & _). rewrite db_sync_eq in Hs. injection Hs as <- _. split; [apply Keep_ext; reflexivity|reflexivity].
  - destruct Hst as (-> & d1 & b1 & rs & ev1 & b2 & e & ev2 & Hr & Hc & _). split; [|reflexivity].
    assert (K1 : Keep d d1).
    { refine (proj1 (run_bops_db (fun _ => Keep d) _ _ _ _ _ _ _ _ _ (Keep_refl d) Hr)).
      - intros x b x' b' ev K Hfl. exact (Keep_trans _ _ _ K (batch_flush_rotate_keep _ _ _ _ _ Hfl)).
      - intros _ x x' Ht K. exact (Keep_trans _ _ _ K (touched_keep _ _ Ht)). }
    destruct (batch_commit_cases _ _ _ _ _ _ Hc) as [(_ & -> & _)|(_ & _ & _ & [(_ & -> & _)|(_ & d2 & b3 & ev3 & a & p & ev4 & Hfl & _ & ->)])];
      try exact K1.
    destruct (batch_flush_is_grows _ _ _ _ _ Hfl) as (ps & _ & Hg).
    exact (Keep_trans _ _ _ K1 (Keep_trans _ _ _ (grows_keep _ _ _ Hg) (Keep_ext _ _ eq_refl eq_refl))).
Qed.
