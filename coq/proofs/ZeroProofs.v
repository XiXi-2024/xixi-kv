(* ZeroProofs.v — a lost block (C04, C03): where a record should begin the reader finds zeros.  The scan ends
   there as a torn tail, whatever lies behind: nothing behind a hole is ever replayed. *)
From Coq Require Import List ZArith Lia ZifyN ZifyNat ZifyBool.
From KV Require Import Bytes GenConsts Chunk BytesLemmas ChunkProofs FileProofs.
Import ListNotations.
Open Scope N_scope.

Section WithCrc.
Variable crc : bytes -> N.
Hypothesis crc_u32 : forall b, crc b < 4294967296.
(* the checksum of a zero length field and a zero type byte is not zero (true of CRC-32: props/C04.v) *)
Hypothesis crc_zero_header : crc [0; 0; 0] <> 0.

Definition z7 : bytes := [0; 0; 0; 0; 0; 0; 0].

Lemma decode_zero_header (rest : bytes) : decode_chunk crc (z7 ++ rest) = Err InvalidCRC.
Proof.
  change (z7 ++ rest) with ([0; 0; 0; 0] ++ [0; 0] ++ [0] ++ [] ++ rest).
  rewrite decode_raw by reflexivity. cbn [app]. change (rd32 [0; 0; 0; 0]) with 0.
  destruct (_ =? _) eqn:E; [|reflexivity]. apply N.eqb_eq in E. symmetry in E. contradiction.
Qed.

Lemma read_chunk_zero (pre rest : bytes) bid off :
  len pre = bid * blockSize + off -> off + 7 <= blockSize ->
  read_chunk crc (pre ++ z7 ++ rest) (len (pre ++ z7 ++ rest)) bid off = CErr UnexpectedEOF.
Proof.
  intros Hpre Hoff. destruct (read_chunk_at crc pre z7 rest bid off Hpre) as (tl & e & ->); [reflexivity|exact Hoff|].
  unfold chunk_at. rewrite decode_zero_header. unfold chunk_error.
  rewrite chunkHeaderSize_val, (take_app_exact z7) by reflexivity.
  replace (7 <=? len (z7 ++ tl)) with true; [reflexivity|].
  symmetry. apply N.leb_le. rewrite len_app. change (len z7) with 7. lia.
Qed.

Lemma reader_next_zero (pre rest : bytes) fid bid off :
  len pre = bid * blockSize + off -> off + 7 <= blockSize ->
  reader_next crc (pre ++ z7 ++ rest) fid bid off = Err UnexpectedEOF.
Proof.
  intros Hpre Hoff. unfold reader_next, blocks_fuel. cbn [reader_next_fuel].
  rewrite read_chunk_zero by assumption. reflexivity.
Qed.

(* C04 / C03: a file written from empty, then - where the next record would begin (after the block-tail padding, if
   the writer would pad) - seven zero bytes (a block that never reached the disk reads back as zeros), then ANY bytes:
   the scan returns exactly the records written before the hole and ends as a torn tail.  Nothing behind the hole -
   later records of a batch, its batch-finished record - is ever delivered to recovery or to a merge. *)
Theorem scan_stops_at_hole : forall ds fid bs ps bid' bsz' behind,
  Forall nonempty ds ->
  write_all_buf crc fid 0 0 ds = (bs, ps, bid', bsz') ->
  scan crc (bs ++ zeros (pad_len bsz') ++ z7 ++ behind) fid = (combine ds ps, STorn).
Proof.
  intros ds fid bs ps bid' bsz' behind Hne Hw.
  apply (scan_written_then crc crc_u32 ds fid bs ps bid' bsz' _ UnexpectedEOF Hne Hw); [|auto].
  (* the reader stands where the next record would begin: behind the padding *)
  intros Hlen Hwf. rewrite app_assoc. destruct (norm_spec bid' bsz' Hwf) as (Hlt & Hpos).
  apply reader_next_zero; [rewrite len_app, len_zeros, Hlen, Hpos; reflexivity|rewrite blockSize_val, chunkHeaderSize_val in *; lia].
Qed.
End WithCrc.
