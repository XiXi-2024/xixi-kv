(* EngineCrash.v — recovery from a crash image: a surviving prefix of the log denotes the state
   after a prefix of the acknowledged mutations; a batch is all-or-nothing (C03, C04). *)
From Coq Require Import ZArith Lia ZifyN ZifyNat ZifyBool.
From KV Require Import Bytes GenConsts Chunk Record Engine Script AMapLemmas EngineFiles EngineOps EngineInv
  EngineBatch EngineRefine EngineLog EngineRecover EngineOpen.
Open Scope N_scope.

Definition is_prefix {A} (p l : list A) : Prop := exists s, l = p ++ s.

Lemma is_prefix_refl {A} (l : list A) : is_prefix l l.
Proof. exists []. rewrite app_nil_r. reflexivity. Qed.
Lemma is_prefix_app {A} (l s : list A) : is_prefix l (l ++ s).
Proof. exists s. reflexivity. Qed.
Lemma is_prefix_nil {A} (l : list A) : is_prefix [] l.
Proof. exists l. reflexivity. Qed.
Lemma is_prefix_cons {A} (x : A) p l : is_prefix (x :: p) (x :: l) <-> is_prefix p l.
Proof. split; intros [s Hs]; exists s; [injection Hs as ->|rewrite Hs]; reflexivity. Qed.
Lemma is_prefix_cons_inv {A} (x : A) p l : is_prefix (x :: p) l -> exists l', l = x :: l' /\ is_prefix p l'.
Proof. intros [s ->]. exists (p ++ s). split; [reflexivity|apply is_prefix_app]. Qed.

Lemma is_prefix_cases {A} : forall (p q l : list A), is_prefix p l -> is_prefix q l -> is_prefix p q \/ is_prefix q p.
Proof.
  induction p as [|x p IH]; intros q l Hp Hq; [left; apply is_prefix_nil|].
  destruct q as [|y q]; [right; apply is_prefix_nil|].
  destruct (is_prefix_cons_inv _ _ _ Hp) as (l' & -> & Hp'). destruct (is_prefix_cons_inv _ _ _ Hq) as (l'' & [= <- <-] & Hq').
  destruct (IH q l' Hp' Hq'); [left|right]; apply is_prefix_cons; assumption.
Qed.
Lemma is_prefix_of_app {A} (q a b : list A) : is_prefix q (a ++ b) -> is_prefix q a \/ exists s, q = a ++ s /\ is_prefix s b.
Proof.
  intros Hq. destruct (is_prefix_cases q a (a ++ b) Hq (is_prefix_app a b)) as [H|[s ->]]; [left; exact H|right].
  exists s. split; [reflexivity|]. destruct Hq as [t Ht]. rewrite <- app_assoc in Ht. exists t. exact (app_inv_head a _ _ Ht).
Qed.
Lemma is_prefix_of_snoc {A} (Q l : list A) x : is_prefix Q (l ++ [x]) -> is_prefix Q l \/ Q = l ++ [x].
Proof.
  intros H. destruct (is_prefix_of_app _ _ _ H) as [H1|(s & -> & [t Ht])]; [left; exact H1|].
  destruct s as [|y s]; [left; rewrite app_nil_r; apply is_prefix_refl|right].
  injection Ht as <- Ht. destruct s; [reflexivity|discriminate].
Qed.
Lemma is_prefix_map {A B} (f : A -> B) Q l : is_prefix Q (map f l) -> exists l', Q = map f l' /\ is_prefix l' l.
Proof.
  revert Q. induction l as [|a l IH]; intros Q HQ; (destruct Q as [|q Q]; [exists []; split; [reflexivity|apply is_prefix_nil]|]).
  - destruct HQ as [s Hs]. discriminate.
  - destruct (is_prefix_cons_inv _ _ _ HQ) as (l'' & [= <- <-] & HQ'). destruct (IH Q HQ') as (l' & -> & Hl').
    exists (a :: l'). split; [reflexivity|apply is_prefix_cons; exact Hl'].
Qed.
Lemma is_prefix_Forall {A} (P : A -> Prop) Q l : Forall P l -> is_prefix Q l -> Forall P Q.
Proof. intros H [s ->]. apply Forall_app in H. exact (proj1 H). Qed.

(* ---- the log chunk of one operation is atomic ---- *)
(* A chunk, in this file, is what one operation adds to the log (not the framing unit of Chunk.v).
   [atomic_chunk m X m']: replaying any prefix of X from state (m, no pending batch) yields m
   or m' (and the whole of X yields m') *)
Definition atomic_chunk (m : smap) (X : list record) (m' : smap) : Prop :=
  (forall Q, is_prefix Q X -> fst (sreplay m [] Q) = m \/ fst (sreplay m [] Q) = m') /\
  sreplay m [] X = (m', []).

Lemma atomic_nil m : atomic_chunk m [] m.
Proof. split; [|reflexivity]. intros Q [s Hs]. destruct Q; [left; reflexivity|discriminate]. Qed.

Lemma atomic_single m r : r_batch r = 0 -> atomic_chunk m [r] (rec_apply m r).
Proof.
  intros Hb. split; [|cbn [sreplay]; rewrite Hb; reflexivity].
  intros Q HQ. destruct (is_prefix_of_snoc Q [] r HQ) as [[s Hs]| ->]; [destruct Q; [left; reflexivity|discriminate]|].
  right. cbn [app sreplay fst]. rewrite Hb. reflexivity.
Qed.

Lemma atomic_batch m id st key : id <> 0 -> Forall ok_type st ->
  atomic_chunk m (map (tag id) st ++ [mkRec rt_BatchFinished key [] id]) (s_apply_recs m st).
Proof.
  intros Hid Hty.
  assert (Hfull : sreplay m [] (map (tag id) st ++ [mkRec rt_BatchFinished key [] id]) = (s_apply_recs m st, [])).
  { rewrite sreplay_app. change (@nil (N * list record)) with (pend id []).
    rewrite (sreplay_tagged id Hid st [] m Hty). cbn [fst snd app]. apply sreplay_seal. exact Hid. }
  split; [|exact Hfull]. intros Q HQ. destruct (is_prefix_of_snoc _ _ _ HQ) as [Hpre| ->]; [left|right; rewrite Hfull; reflexivity].
  destruct (is_prefix_map _ _ _ Hpre) as (st' & -> & Hst'). change (@nil (N * list record)) with (pend id []).
  rewrite (sreplay_tagged id Hid st' [] m (is_prefix_Forall _ _ _ Hty Hst')). reflexivity.
Qed.

(* ---- a surviving prefix of the log denotes a prefix of the history ---- *)
(* the specification states after 0, 1, ..., n operations *)
Fixpoint states (m : smap) (ops : list op) : list smap :=
  match ops with [] => [m] | o :: rest => m :: states (fst (sstep m o)) rest end.
Lemma states_length ops : forall m, length (states m ops) = S (length ops).
Proof. induction ops as [|o ops IH]; intros m; cbn [states length]; [reflexivity|]. rewrite IH. reflexivity. Qed.

Definition step_chunk_ok (d : db) (m : smap) (o : op) (d' : db) : Prop :=
  exists X, log d' = log d ++ X /\ atomic_chunk m X (fst (sstep m o)).

Lemma chunk_none d m o d' : log d' = log d -> fst (sstep m o) = m -> step_chunk_ok d m o d'.
Proof. intros Hl Hs. exists []. rewrite app_nil_r, Hs. split; [exact Hl|apply atomic_nil]. Qed.
Lemma chunk_plain d m o r d1 p evs :
  LogInv d m -> r_batch r = 0 -> db_append d r = (d1, p, evs) -> fst (sstep m o) = rec_apply m r ->
  step_chunk_ok d m o (idx_upd d1 r p).
Proof.
  intros HL Hb Ha Hs. exists [r]. rewrite Hs. split; [exact (proj2 (append_index_log _ _ _ _ _ _ HL Hb Ha))|apply atomic_single; exact Hb].
Qed.

Lemma sstep_put m k v : fst (sstep m (OpPut k v)) = if len k =? 0 then m else rec_apply m (mkRec rt_Normal k v 0).
Proof. cbn [sstep]. unfold s_put. destruct (len k =? 0); reflexivity. Qed.
Lemma sstep_del m k : fst (sstep m (OpDel k)) = if len k =? 0 then m else rec_apply m (mkRec rt_Deleted k [] 0).
Proof. cbn [sstep]. unfold s_del. destruct (len k =? 0); reflexivity. Qed.

Lemma sstep_batch m sync id bops : fst (sstep m (OpBatch sync id bops)) = fst (s_bops m bops).
Proof. cbn [sstep]. destruct (s_bops m bops). reflexivity. Qed.

(* only a restart looks at the merge directory *)
Theorem step_chunk d k m o d' k' r evs :
  LogInv d m -> no_restart o \/ k_merge k = None -> op_ok o -> step (d, k) o = ((d', k'), r, evs) ->
  step_chunk_ok d m o d'.
Proof.
  intros HL Hnr Hok Hst. pose proof (LogInv_InvO _ _ HL) as HO. pose proof (step_cases _ _ _ _ _ _ _ Hst) as Hc.
  destruct o as [key v|key|key| | | | |sync id bops|order|c].
  - destruct Hc as (_ & e & Hp & _).
    destruct (db_put_cases _ _ _ _ _ _ Hp) as [(E & -> & _)|(E & _ & d1 & p & Ha & ->)].
    + apply chunk_none; [reflexivity|rewrite sstep_put, E; reflexivity].
    + apply (chunk_plain d m _ (mkRec rt_Normal key v 0) d1 p evs HL eq_refl Ha). rewrite sstep_put, E. reflexivity.
  - destruct Hc as (_ & v & Hg & _). apply chunk_none; [exact (proj1 (log_touched _ _ HO (db_get_touched _ _ _ _ _ Hg)))|reflexivity].
  - destruct Hc as (_ & e & Hp & _).
    destruct (db_delete_cases _ _ _ _ _ Hp) as [(E & -> & _)|[(E & Hg & -> & _)|(E & _ & d1 & p & Ha & -> & _)]].
    + apply chunk_none; [reflexivity|rewrite sstep_del, E; reflexivity].
    + apply chunk_none; [reflexivity|]. rewrite sstep_del, E. apply amap_del_absent.
      pose proof (R_get d m key (LogInv_R _ _ HL)) as Hm. rewrite Hg in Hm. exact Hm.
    + apply (chunk_plain d m _ (mkRec rt_Deleted key [] 0) d1 p evs HL eq_refl Ha). rewrite sstep_del, E. reflexivity.
  - destruct Hc as (_ & -> & _). apply chunk_none; reflexivity.
  - destruct Hc as (_ & x & Hf & _). apply chunk_none; [exact (proj1 (log_touched _ _ HO (db_fold_aux_touched _ _ _ _ _ Hf)))|reflexivity].
  - destruct Hc as (_ & -> & _). apply chunk_none; reflexivity.
  - destruct Hc as (_ & Hs & _). rewrite db_sync_eq in Hs. injection Hs as <- _. apply chunk_none; reflexivity.
  - destruct Hc as (_ & d1 & b1 & rs & ev1 & b2 & e & ev2 & Hr & Hcm & _).
    destruct (batch_step_log d m sync id bops d1 b1 rs ev1 d' b2 e ev2 HL Hok Hr Hcm) as (_ & _ & _ & [[Hlog Hm]|(st & Hty & Hlog & Hm)]).
    + apply chunk_none; [exact Hlog|rewrite sstep_batch; exact Hm].
    + eexists. split; [exact Hlog|]. rewrite sstep_batch, Hm. exact (atomic_batch m id st _ Hok Hty).
  - destruct Hok.
  - destruct Hnr as [[]|Hnm]. destruct Hc as (k1 & ev1 & ev2 & Hcl & Ho & _). destruct (db_close_spec _ _ _ _ _ HL Hnm Hcl) as (Hdok & Hlog).
    destruct (db_open_spec c k1 Hdok) as (d1 & k2 & ev3 & Ho' & _ & Hlog' & _). rewrite Ho in Ho'. injection Ho' as <- _ _.
    apply chunk_none; [congruence|reflexivity].
Qed.

Fixpoint chunks_ok (m : smap) (ops : list op) (Xs : list (list record)) : Prop :=
  match ops, Xs with
  | [], [] => True
  | o :: ops, X :: Xs => atomic_chunk m X (fst (sstep m o)) /\ chunks_ok (fst (sstep m o)) ops Xs
  | _, _ => False
  end.

Theorem run_chunks : forall ops d k m s' rs evs,
  LogInv d m -> k_merge k = None -> Forall op_ok ops -> run (d, k) ops = (s', rs, evs) ->
  exists Xs, log (fst s') = log d ++ concat Xs /\ chunks_ok m ops Xs.
Proof.
  induction ops as [|o ops IH]; intros d k m s' rs evs HL Hnm Hok Hrun; cbn [run] in Hrun.
  - injection Hrun as <- _ _. exists []. split; [symmetry; apply app_nil_r|exact I].
  - destruct (step (d, k) o) as [[[d1 k1] r] ev1] eqn:Hst. destruct (run (d1, k1) ops) as [[s2 rs2] ev2] eqn:Hr2. injection Hrun as <- _ _.
    pose proof (Forall_inv Hok) as Ho. destruct (step_log _ _ _ _ _ _ _ _ HL Hnm Ho Hst) as (HL1 & Hnm1 & _).
    destruct (step_chunk _ _ _ _ _ _ _ _ HL (or_intror Hnm) Ho Hst) as (X & HX & Hat).
    destruct (IH _ _ _ _ _ _ HL1 Hnm1 (Forall_inv_tail Hok) Hr2) as (Xs & HXs & Hch).
    exists (X :: Xs). split; [cbn [concat]; rewrite HXs, HX, app_assoc; reflexivity|exact (conj Hat Hch)].
Qed.

Lemma chunks_prefix : forall ops m Xs Q, chunks_ok m ops Xs -> is_prefix Q (concat Xs) ->
  exists j, (j <= length ops)%nat /\ fst (sreplay m [] Q) = nth j (states m ops) m.
Proof.
  induction ops as [|o ops IH]; intros m [|X Xs] Q Hch HQ; try contradiction.
  - destruct HQ as [s Hs]. destruct Q; [|discriminate]. exists 0%nat. split; [lia|reflexivity].
  - destruct Hch as [[Hat Hfull] Hch]. cbn [concat] in HQ. destruct (is_prefix_of_app _ _ _ HQ) as [HX|(s & -> & Hs)].
    + destruct (Hat Q HX) as [H|H]; [exists 0%nat|exists 1%nat]; (split; [cbn; lia|]); cbn [states nth]; [exact H|].
      destruct ops; exact H.
    + destruct (IH _ _ s Hch Hs) as (j & Hj & Hrep). exists (S j). split; [cbn; lia|].
      rewrite sreplay_app, Hfull. cbn [fst snd states nth]. rewrite Hrep. apply nth_indep. rewrite states_length. lia.
Qed.

(* C03/C04 core: any surviving prefix of the final log that contains the initial log replays to
   the specification state after some prefix of the operations: no partial operation, no partial batch *)
Theorem prefix_recovery : forall ops d k m s' rs evs,
  LogInv d m -> k_merge k = None -> Forall op_ok ops -> run (d, k) ops = (s', rs, evs) ->
  forall P, is_prefix P (log (fst s')) -> is_prefix (log d) P ->
  exists j, (j <= length ops)%nat /\ fst (sreplay [] [] P) = nth j (states m ops) m.
Proof.
  intros ops d k m s' rs evs HL Hnm Hok Hrun P HP1 [Q ->].
  destruct (run_chunks _ _ _ _ _ _ _ HL Hnm Hok Hrun) as (Xs & HXs & Hch). rewrite HXs in HP1.
  destruct HP1 as [t Ht]. rewrite <- app_assoc in Ht. apply app_inv_head in Ht.
  rewrite sreplay_app, (LogInv_sreplay _ _ HL). exact (chunks_prefix ops m Xs Q Hch (ex_intro _ t Ht)).
Qed.

(* ---- Open on the crash image of a reachable state ---- *)
Lemma recs_upto_prefix rs cut : is_prefix (recs_upto rs cut) rs.
Proof.
  induction rs as [|[r p] rs IH]; cbn [recs_upto]; [apply is_prefix_refl|].
  destruct (pos_end p <=? cut); [apply is_prefix_cons; exact IH|apply is_prefix_nil].
Qed.
Lemma recs_upto_end rs cut r p : In (r, p) (recs_upto rs cut) -> pos_end p <= cut.
Proof.
  induction rs as [|[r0 p0] rs IH]; cbn [recs_upto]; [intros []|].
  destruct (pos_end p0 <=? cut) eqn:E; [|intros []]. intros [Heq|Hin]; [injection Heq as <- <-; lia|exact (IH Hin)].
Qed.
Lemma recs_upto_all rs cut : (forall r p, In (r, p) rs -> pos_end p <= cut) -> recs_upto rs cut = rs.
Proof.
  induction rs as [|[r p] rs IH]; intros H; cbn [recs_upto]; [reflexivity|].
  pose proof (H r p (or_introl eq_refl)) as Hp. destruct (pos_end p <=? cut) eqn:E; [|lia].
  rewrite IH; [reflexivity|]. intros r0 p0 Hin. apply (H r0 p0). right. exact Hin.
Qed.
Lemma recs_upto_size f cut : wf_lfile f -> lf_size f <= cut -> recs_upto (lf_recs f) cut = lf_recs f.
Proof. intros Hwf Hle. apply recs_upto_all. intros r p Hin. destruct (Hwf r p Hin) as (_ & _ & H3 & _). unfold pos_end, pstart in *. lia. Qed.

Lemma lookup_in_some rs r p : In (r, p) rs -> lf_lookup rs (p_bid p) (p_off p) <> None.
Proof.
  induction rs as [|[r0 p0] rs IH]; [intros []|]. cbn [lf_lookup]. intros [Heq|Hin].
  - injection Heq as <- <-. rewrite !N.eqb_refl. discriminate.
  - destruct ((p_bid p0 =? p_bid p) && (p_off p0 =? p_off p)); [discriminate|auto].
Qed.

Lemma crash_file_ok id f cut :
  wf_lfile f -> pos_ok id f -> file_ok (id, lf_crash f cut).
Proof.
  intros Hwf Hpo. unfold file_ok, lf_crash. cbv zeta. cbn [fst snd lf_recs lf_size lf_phys].
  destruct (recs_upto_prefix (lf_recs f) cut) as [rest Hrest].
  assert (Hsub : forall r p, In (r, p) (recs_upto (lf_recs f) cut) -> In (r, p) (lf_recs f)) by (intros r p Hin; rewrite Hrest; apply in_or_app; left; exact Hin).
  split; [|split; [|reflexivity]].
  - intros r p Hin. pose proof (recs_upto_end _ _ _ _ Hin) as He. unfold pos_end in He.
    destruct (Hwf r p (Hsub r p Hin)) as (H1 & H2 & H3 & H4). unfold pstart in *. cbn [lf_size]. repeat split; try assumption; lia.
  - intros r p Hin. cbn [lf_recs] in *. destruct (Hpo r p (Hsub r p Hin)) as [Hfid Hlk]. split; [exact Hfid|].
    rewrite Hrest, lookup_app_gen in Hlk.
    destruct (lf_lookup (recs_upto (lf_recs f) cut) (p_bid p) (p_off p)) eqn:E; [exact Hlk|]. exfalso. exact (lookup_in_some _ _ _ Hin E).
Qed.

Lemma crash_older_log cuts : forall l,
  (forall id f, In (id, f) l -> forall r p, In (r, p) (lf_recs f) -> pos_end p <= cuts id f) ->
  files_log (map (fun x => (fst x, lf_crash (snd x) (cuts (fst x) (snd x)))) l) = files_log l.
Proof.
  induction l as [|[i g] l IH]; intros H; [reflexivity|]. cbn [map fst snd]. rewrite !files_log_cons.
  rewrite IH by (intros id f Hx; apply H; right; exact Hx). f_equal.
  unfold file_log, lf_crash. cbv zeta. cbn [snd lf_recs]. f_equal. apply recs_upto_all. exact (H i g (or_introl eq_refl)).
Qed.

(* the directory after a crash of the open database d: the rotated file id survives up to cuts id f, the
   active file up to cutA.  The theorems below assume lf_size f <= cuts id f for every rotated file: that is the
   crash model (C13 shows that rotated files are flushed; the step from there to the cut is not a theorem) *)
Definition crash_disk_of (d : db) (cuts : N -> lfile -> N) (cutA : N) : disk :=
  mkDisk (map (fun x => (fst x, lf_crash (snd x) (cuts (fst x) (snd x)))) (d_older d)
          ++ [(d_active_id d, lf_crash (d_active d) cutA)]) None None.

Definition surviving_log (d : db) (cutA : N) : list record :=
  files_log (d_older d) ++ map fst (recs_upto (lf_recs (d_active d)) cutA).

Lemma surviving_prefix d cutA : is_prefix (surviving_log d cutA) (log d).
Proof.
  unfold surviving_log, log, file_log. destruct (recs_upto_prefix (lf_recs (d_active d)) cutA) as [rest Hr].
  exists (map fst rest). rewrite <- app_assoc, <- map_app, <- Hr. reflexivity.
Qed.
Lemma surviving_all d m cutA : LogInv d m -> lf_size (d_active d) <= cutA -> surviving_log d cutA = log d.
Proof. intros HL Hle. unfold surviving_log. rewrite (recs_upto_size _ _ (proj1 (LogInv_InvF _ _ HL)) Hle). reflexivity. Qed.

Lemma crash_disk_ok d m cuts cutA :
  LogInv d m -> (forall id f, In (id, f) (d_older d) -> lf_size f <= cuts id f) ->
  disk_ok (crash_disk_of d cuts cutA) /\ files_log (k_data (crash_disk_of d cuts cutA)) = surviving_log d cutA.
Proof.
  intros HL Hcuts. pose proof (LogInv_InvO _ _ HL) as HO.
  destruct (db_files_ok d (LogInv_InvF _ _ HL) HO (LogInv_InvP _ _ HL)) as [E Hall]. rewrite E in Hall.
  assert (Hok : forall id f cut, In (id, f) (d_older d ++ [(d_active_id d, d_active d)]) -> file_ok (id, lf_crash f cut)).
  { intros id f cut Hin. destruct (Hall _ _ Hin). apply crash_file_ok; assumption. }
  unfold crash_disk_of. cbn [k_data]. split; [split; [reflexivity|split]|].
  - apply ids_below_asc_app. refine (ids_below_ids _ _ _ _ HO). rewrite map_map. reflexivity.
  - apply Forall_app. split; [|constructor; [apply Hok, in_or_app; right; left; reflexivity|constructor]].
    apply Forall_forall. intros [i g] Hx. apply in_map_iff in Hx. destruct Hx as ([i0 g0] & [= <- <-] & Hx). apply Hok, in_or_app. left. exact Hx.
  - rewrite files_log_app, files_log_single. unfold surviving_log. f_equal. apply crash_older_log. intros id f Hx r p Hrp.
    rewrite <- (recs_upto_size f (cuts id f) (proj1 (Hall _ _ (in_or_app _ _ _ (or_introl Hx)))) (Hcuts _ _ Hx)) in Hrp.
    exact (recs_upto_end _ _ _ _ Hrp).
Qed.

Theorem crash_recovers d m cuts cutA c :
  LogInv d m ->
  (forall id f, In (id, f) (d_older d) -> lf_size f <= cuts id f) ->
  exists d' k' evs, db_open c (crash_disk_of d cuts cutA) = (OpenOk d' k', evs) /\
    LogOK d' (fst (sreplay [] [] (surviving_log d cutA))).
Proof.
  intros HL Hcuts. destruct (crash_disk_ok d m cuts cutA HL Hcuts) as [Hok Hlog].
  destruct (db_open_spec c _ Hok) as (d' & k' & evs & Ho & HLO & _). rewrite Hlog in HLO. eauto.
Qed.

Lemma run_app : forall a b s,
  run s (a ++ b) =
    let '(s1, r1, e1) := run s a in let '(s2, r2, e2) := run s1 b in (s2, r1 ++ r2, e1 ++ e2).
Proof.
  induction a as [|o a IH]; intros b s; cbn [app run].
  - destruct (run s b) as [[s2 r2] e2]. reflexivity.
  - destruct (step s o) as [[s1 r] e1]. rewrite IH.
    destruct (run s1 a) as [[s2 r2] e2]. destruct (run s2 b) as [[s3 r3] e3].
    cbn [app]. rewrite <- app_assoc. reflexivity.
Qed.

Definition final_state (m : smap) (ops : list op) : smap := fold_left (fun m o => fst (sstep m o)) ops m.

Lemma states_app_nth : forall a b m j, (j <= length b)%nat ->
  nth (length a + j) (states m (a ++ b)) m = nth j (states (final_state m a) b) (final_state m a).
Proof.
  induction a as [|o a IH]; intros b m j Hj; cbn [app length Nat.add states nth]; [reflexivity|].
  unfold final_state. cbn [fold_left]. fold (final_state (fst (sstep m o)) a).
  rewrite <- IH by exact Hj. apply nth_indep. rewrite states_length, app_length. lia.
Qed.
Lemma states_nth_final : forall ops m, nth (length ops) (states m ops) m = final_state m ops.
Proof.
  intros ops m. pose proof (states_app_nth ops [] m 0 (Nat.le_refl _)) as H.
  rewrite app_nil_r, Nat.add_0_r in H. exact H.
Qed.

Theorem run_log_final : forall ops d k m s' rs evs,
  LogInv d m -> k_merge k = None -> Forall op_ok ops -> run (d, k) ops = (s', rs, evs) ->
  LogInv (fst s') (final_state m ops) /\ k_merge (snd s') = None.
Proof. intros ops d k m s' rs evs HL Hnm Hok Hrun. exact (proj2 (run_log_state ops d k m s' rs evs HL Hnm Hok Hrun)). Qed.

(* C03: the crash image of any reachable state, with the active file cut anywhere, opens (under
   any configuration) to the specification state after some prefix of the history (which prefix:
   C03_surviving_operations_are_included); a process-only crash (nothing cut) loses nothing *)
Theorem crash_prefix : forall ops d k m s' rs evs cuts cutA c,
  LogInv d m -> k_merge k = None -> Forall op_ok ops -> run (d, k) ops = (s', rs, evs) ->
  (forall id f, In (id, f) (d_older (fst s')) -> lf_size f <= cuts id f) ->
  is_prefix (log d) (surviving_log (fst s') cutA) ->
  exists d' k' evs' j, db_open c (crash_disk_of (fst s') cuts cutA) = (OpenOk d' k', evs') /\
    (j <= length ops)%nat /\ R d' (nth j (states m ops) m) /\ Inv d' /\
    (lf_size (d_active (fst s')) <= cutA -> R d' (final_state m ops)).
Proof.
  intros ops d k m s' rs evs cuts cutA c HL Hnm Hok Hrun Hcuts Hpre.
  destruct (run_log_final _ _ _ _ _ _ _ HL Hnm Hok Hrun) as [HL' _].
  destruct (crash_recovers (fst s') _ cuts cutA c HL' Hcuts) as (d' & k' & evs' & Ho & HI' & _ & _ & HR' & _).
  destruct (prefix_recovery _ _ _ _ _ _ _ HL Hnm Hok Hrun (surviving_log (fst s') cutA) (surviving_prefix _ _) Hpre)
    as (j & Hj & Hrep).
  exists d', k', evs', j. split; [exact Ho|]. split; [exact Hj|]. split; [rewrite <- Hrep; exact HR'|]. split; [exact HI'|].
  intros Hfull. rewrite (surviving_all _ _ _ HL' Hfull), (LogInv_sreplay _ _ HL') in HR'. exact HR'.
Qed.

Lemma open_empty_nil c d k evs : db_open c empty_disk = (OpenOk d k, evs) -> log d = [].
Proof.
  rewrite db_open_empty. intros [= <- _ _]. exact (proj2 (fresh_db_LogOK c)).
Qed.
Theorem crash_prefix_from_empty c ops d k evs0 s' rs evs cuts cutA c' :
  Forall op_ok ops -> db_open c empty_disk = (OpenOk d k, evs0) -> run (d, k) ops = (s', rs, evs) ->
  (forall id f, In (id, f) (d_older (fst s')) -> lf_size f <= cuts id f) ->
  exists d' k' evs' j, db_open c' (crash_disk_of (fst s') cuts cutA) = (OpenOk d' k', evs') /\
    (j <= length ops)%nat /\ R d' (nth j (states [] ops) []) /\ Inv d' /\
    (lf_size (d_active (fst s')) <= cutA -> R d' (final_state [] ops)).
Proof.
  intros Hok Hopen Hrun Hcuts.
  destruct (open_empty_log c _ _ _ Hopen) as [HL Hnm].
  apply (crash_prefix ops d k [] s' rs evs cuts cutA c' HL Hnm Hok Hrun Hcuts).
  rewrite (open_empty_nil _ _ _ _ Hopen). apply is_prefix_nil.
Qed.
