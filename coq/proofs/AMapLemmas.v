(* AMapLemmas.v — byte-string order and the ordered association map used for the index and
   for the specification. *)
From Coq Require Import ZArith Lia ZifyN ZifyNat ZifyBool Sorting.Sorted.
From KV Require Import Bytes Engine BytesLemmas.
Open Scope N_scope.

Lemma bytes_eqb_sym a b : bytes_eqb a b = bytes_eqb b a.
Proof. destruct (bytes_eqb a b) eqn:E; symmetry.
  - apply bytes_eqb_eq in E. subst. apply bytes_eqb_refl.
  - apply bytes_eqb_neq in E. apply bytes_eqb_neq. congruence. Qed.

Lemma bytes_ltb_irrefl a : bytes_ltb a a = false.
Proof. induction a as [|x a IH]; cbn [bytes_ltb]; [reflexivity|].
  destruct (x <? x) eqn:E; [lia|exact IH]. Qed.
Lemma bytes_ltb_trans a b c : bytes_ltb a b = true -> bytes_ltb b c = true -> bytes_ltb a c = true.
Proof.
  revert b c; induction a as [|x a IH]; intros [|y b] [|z c]; cbn [bytes_ltb]; intros H1 H2; try discriminate; auto.
  destruct (x <? y) eqn:E1; destruct (y <? z) eqn:E2; destruct (x <? z) eqn:E3; try reflexivity; try lia.
  - destruct (z <? y) eqn:E4; [discriminate|]. lia.
  - destruct (y <? x) eqn:E4; [discriminate|]. lia.
  - destruct (y <? x) eqn:E4; [discriminate|]. destruct (z <? y) eqn:E5; [discriminate|].
    destruct (z <? x) eqn:E6; [lia|]. eapply IH; eassumption.
Qed.
Lemma bytes_ltb_total a b : bytes_ltb a b = false -> bytes_eqb a b = false -> bytes_ltb b a = true.
Proof.
  revert b; induction a as [|x a IH]; intros [|y b]; cbn [bytes_ltb bytes_eqb]; intros H1 H2; try discriminate; auto.
  destruct (x <? y) eqn:E1; [discriminate|]. destruct (y <? x) eqn:E2; [reflexivity|].
  assert (x = y) by lia. subst. rewrite N.eqb_refl in H2. cbn in H2. apply IH; assumption.
Qed.
Lemma bytes_ltb_neq a b : bytes_ltb a b = true -> a <> b.
Proof. intros H E. subst. rewrite bytes_ltb_irrefl in H. discriminate. Qed.

Section AMap.
Context {V : Type}.
Implicit Types m : amap V.

Definition key_lt (a b : bytes * V) : Prop := bytes_ltb (fst a) (fst b) = true.
Definition sorted m : Prop := StronglySorted key_lt m.

Lemma sorted_nil : sorted []. Proof. constructor. Qed.
Lemma sorted_inv x m : sorted (x :: m) -> sorted m /\ Forall (key_lt x) m.
Proof. intros H. inversion H; subst. auto. Qed.

Lemma get_none_of_lt m k : sorted m ->
  Forall (fun e => bytes_ltb k (fst e) = true) m -> amap_get m k = None.
Proof.
  induction m as [|[k0 v0] m IH]; intros Hs Hf; [reflexivity|].
  cbn [amap_get]. pose proof (Forall_inv Hf) as Hx. pose proof (Forall_inv_tail Hf) as Hm. cbn [fst] in *.
  destruct (bytes_eqb k k0) eqn:E.
  - apply bytes_eqb_eq in E. subst. rewrite bytes_ltb_irrefl in Hx. discriminate.
  - apply IH; [apply (sorted_inv _ _ Hs)| assumption].
Qed.

Lemma amap_get_put m k v k' :
  amap_get (fst (amap_put m k v)) k' = if bytes_eqb k' k then Some v else amap_get m k'.
Proof.
  induction m as [|[k0 v0] m IH]; cbn [amap_put fst amap_get]; [reflexivity|].
  destruct (bytes_eqb k k0) eqn:E.
  - apply bytes_eqb_eq in E. subst k0. cbn [fst amap_get]. destruct (bytes_eqb k' k); reflexivity.
  - destruct (bytes_ltb k k0); [reflexivity|].
    destruct (amap_put m k v) as [r o]. cbn [fst amap_get] in *. rewrite IH.
    destruct (bytes_eqb k' k0) eqn:E0; [|reflexivity].
    apply bytes_eqb_eq in E0. subst k'. rewrite bytes_eqb_sym, E. reflexivity.
Qed.
Lemma amap_get_put_same m k v : amap_get (fst (amap_put m k v)) k = Some v.
Proof. rewrite amap_get_put, bytes_eqb_refl. reflexivity. Qed.
Lemma amap_put_old m k v : sorted m -> snd (amap_put m k v) = amap_get m k.
Proof.
  induction m as [|[k0 v0] m IH]; intros Hs; cbn [amap_put snd amap_get]; [reflexivity|].
  destruct (sorted_inv _ _ Hs) as [Hs' Hf].
  destruct (bytes_eqb k k0) eqn:E; [reflexivity|].
  destruct (bytes_ltb k k0) eqn:L.
  - cbn [snd]. symmetry. apply get_none_of_lt; [assumption|].
    eapply Forall_impl; [|exact Hf]. intros e He. unfold key_lt in He. cbn [fst] in He.
    eapply bytes_ltb_trans; eassumption.
  - destruct (amap_put m k v) as [r o]. cbn [snd] in *. apply IH. assumption.
Qed.

Lemma amap_put_keys_lt m k v x : Forall (key_lt x) m -> bytes_ltb (fst x) k = true ->
  Forall (key_lt x) (fst (amap_put m k v)).
Proof.
  induction m as [|[k0 v0] m IH]; intros Hf Hk; cbn [amap_put fst].
  - constructor; [exact Hk|constructor].
  - pose proof (Forall_inv Hf) as Hx. pose proof (Forall_inv_tail Hf) as Hm.
    destruct (bytes_eqb k k0) eqn:E.
    + cbn [fst]. constructor; [exact Hk|exact Hm].
    + destruct (bytes_ltb k k0).
      * cbn [fst]. constructor; [exact Hk|]. constructor; [exact Hx|exact Hm].
      * specialize (IH Hm Hk). destruct (amap_put m k v) as [r o]. cbn [fst] in *.
        constructor; [exact Hx|exact IH].
Qed.
Lemma amap_put_sorted m k v : sorted m -> sorted (fst (amap_put m k v)).
Proof.
  induction m as [|[k0 v0] m IH]; intros Hs; cbn [amap_put fst].
  - constructor; constructor.
  - destruct (sorted_inv _ _ Hs) as [Hs' Hf].
    destruct (bytes_eqb k k0) eqn:E.
    + apply bytes_eqb_eq in E. subst k0. cbn [fst]. constructor; [assumption|].
      eapply Forall_impl; [|exact Hf]. intros e He. exact He.
    + destruct (bytes_ltb k k0) eqn:L.
      * cbn [fst]. constructor; [assumption|]. constructor; [exact L|].
        eapply Forall_impl; [|exact Hf]. intros e He. unfold key_lt in *. cbn [fst] in *.
        eapply bytes_ltb_trans; eassumption.
      * assert (Hk : bytes_ltb k0 k = true) by (apply bytes_ltb_total; assumption).
        pose proof (amap_put_keys_lt m k v (k0, v0) Hf Hk) as Hlt.
        specialize (IH Hs'). destruct (amap_put m k v) as [r o]. cbn [fst] in *.
        constructor; assumption.
Qed.

Lemma amap_del_old m k : snd (amap_del m k) = amap_get m k.
Proof.
  induction m as [|[k0 v0] m IH]; cbn [amap_del snd amap_get]; [reflexivity|].
  destruct (bytes_eqb k k0); [reflexivity|].
  destruct (amap_del m k) as [r o]. cbn [snd] in *. exact IH.
Qed.
Lemma amap_del_keys_lt m k x : Forall (key_lt x) m -> Forall (key_lt x) (fst (amap_del m k)).
Proof.
  induction m as [|[k0 v0] m IH]; intros Hf; cbn [amap_del fst]; [constructor|].
  pose proof (Forall_inv Hf) as Hx. pose proof (Forall_inv_tail Hf) as Hm.
  destruct (bytes_eqb k k0); [exact Hm|].
  specialize (IH Hm). destruct (amap_del m k) as [r o]. cbn [fst] in *. constructor; assumption.
Qed.
Lemma amap_del_sorted m k : sorted m -> sorted (fst (amap_del m k)).
Proof.
  induction m as [|[k0 v0] m IH]; intros Hs; cbn [amap_del fst]; [constructor|].
  destruct (sorted_inv _ _ Hs) as [Hs' Hf].
  destruct (bytes_eqb k k0); [exact Hs'|].
  pose proof (amap_del_keys_lt m k (k0, v0) Hf) as Hlt.
  specialize (IH Hs'). destruct (amap_del m k) as [r o]. cbn [fst] in *. constructor; assumption.
Qed.
Lemma amap_get_del m k k' : sorted m ->
  amap_get (fst (amap_del m k)) k' = if bytes_eqb k' k then None else amap_get m k'.
Proof.
  induction m as [|[k0 v0] m IH]; intros Hs; cbn [amap_del fst amap_get]; [destruct (bytes_eqb k' k); reflexivity|].
  destruct (sorted_inv _ _ Hs) as [Hs' Hf].
  destruct (bytes_eqb k k0) eqn:E.
  - apply bytes_eqb_eq in E. subst k0. cbn [fst]. destruct (bytes_eqb k' k) eqn:E'; [|reflexivity].
    apply bytes_eqb_eq in E'. subst k'. apply get_none_of_lt; assumption.
  - specialize (IH Hs'). destruct (amap_del m k) as [r o]. cbn [fst amap_get] in *. rewrite IH.
    destruct (bytes_eqb k' k0) eqn:E0; [|reflexivity].
    apply bytes_eqb_eq in E0. subst k'. rewrite bytes_eqb_sym, E. reflexivity.
Qed.
Lemma amap_get_in m k v : amap_get m k = Some v -> In (k, v) m.
Proof.
  induction m as [|[k0 v0] m IH]; cbn [amap_get]; [discriminate|].
  destruct (bytes_eqb k k0) eqn:E.
  - apply bytes_eqb_eq in E. intros [= ->]. subst. left. reflexivity.
  - intros H. right. apply IH. exact H.
Qed.
Lemma amap_in_get m k v : sorted m -> In (k, v) m -> amap_get m k = Some v.
Proof.
  induction m as [|[k0 v0] m IH]; intros Hs Hin; [destruct Hin|].
  destruct (sorted_inv _ _ Hs) as [Hs' Hf]. cbn [amap_get].
  destruct Hin as [Heq|Hin].
  - injection Heq as -> ->. rewrite bytes_eqb_refl. reflexivity.
  - destruct (bytes_eqb k k0) eqn:E.
    + apply bytes_eqb_eq in E. subst k0. exfalso.
      rewrite Forall_forall in Hf. specialize (Hf _ Hin). unfold key_lt in Hf. cbn [fst] in Hf.
      rewrite bytes_ltb_irrefl in Hf. discriminate.
    + apply IH; assumption.
Qed.
End AMap.

Section Rel.
Context {A B : Type} (R : A -> B -> Prop).
Definition rel_entry (x : bytes * A) (y : bytes * B) : Prop := fst x = fst y /\ R (snd x) (snd y).
Definition amap_rel (ma : amap A) (mb : amap B) : Prop := Forall2 rel_entry ma mb.

Lemma amap_rel_keys ma mb : amap_rel ma mb -> map fst ma = map fst mb.
Proof. induction 1 as [|x y ma mb [Hk _] _ IH]; cbn [map]; [reflexivity|]. rewrite Hk, IH. reflexivity. Qed.
Lemma amap_rel_len ma mb : amap_rel ma mb -> len ma = len mb.
Proof. induction 1 as [|x y ma mb _ _ IH]; cbn [len]; [reflexivity|]. rewrite IH. reflexivity. Qed.

Lemma amap_rel_get ma mb k : amap_rel ma mb ->
  match amap_get ma k, amap_get mb k with
  | Some a, Some b => R a b
  | None, None => True
  | _, _ => False
  end.
Proof.
  induction 1 as [|[ka a] [kb b] ma mb [Hk Hr] _ IH]; cbn [amap_get]; [exact I|].
  cbn [fst snd] in *. subst kb. destruct (bytes_eqb k ka); [exact Hr|exact IH].
Qed.

Lemma amap_rel_put ma mb k a b : amap_rel ma mb -> R a b ->
  amap_rel (fst (amap_put ma k a)) (fst (amap_put mb k b)).
Proof.
  intros H Hr. induction H as [|[ka a0] [kb b0] ma mb [Hk Hr0] Hrest IH]; cbn [amap_put fst].
  - constructor; [split; auto|constructor].
  - cbn [fst snd] in *. subst kb.
    destruct (bytes_eqb k ka).
    + cbn [fst]. constructor; [split; auto|assumption].
    + destruct (bytes_ltb k ka).
      * cbn [fst]. constructor; [split; auto|]. constructor; [split; auto|assumption].
      * destruct (amap_put ma k a) as [ra oa]. destruct (amap_put mb k b) as [rb ob]. cbn [fst] in *.
        constructor; [split; auto|assumption].
Qed.
Lemma amap_rel_del ma mb k : amap_rel ma mb ->
  amap_rel (fst (amap_del ma k)) (fst (amap_del mb k)).
Proof.
  intros H. induction H as [|[ka a0] [kb b0] ma mb [Hk Hr0] Hrest IH]; cbn [amap_del fst].
  - constructor.
  - cbn [fst snd] in *. subst kb.
    destruct (bytes_eqb k ka); [exact Hrest|].
    destruct (amap_del ma k) as [ra oa]. destruct (amap_del mb k) as [rb ob]. cbn [fst] in *.
    constructor; [split; auto|assumption].
Qed.
End Rel.

Lemma amap_rel_impl {A B} (R R' : A -> B -> Prop) ma mb :
  (forall a b, R a b -> R' a b) -> amap_rel R ma mb -> amap_rel R' ma mb.
Proof. intros Himp H. induction H as [|x y ma mb [Hk Hr] _ IH]; constructor; [split; auto|assumption]. Qed.

Lemma amap_get_head {V} (m : amap V) k v : amap_get ((k, v) :: m) k = Some v.
Proof. cbn [amap_get]. rewrite bytes_eqb_refl. reflexivity. Qed.

Lemma sorted_get_lt_head {V} (m : amap V) k0 v0 k :
  sorted ((k0, v0) :: m) -> bytes_ltb k k0 = true -> amap_get ((k0, v0) :: m) k = None.
Proof.
  intros Hs Hlt. apply get_none_of_lt; [exact Hs|].
  constructor; [exact Hlt|]. destruct (sorted_inv _ _ Hs) as [_ Hf].
  eapply Forall_impl; [|exact Hf]. intros e He. unfold key_lt in He. cbn [fst] in He.
  eapply bytes_ltb_trans; eassumption.
Qed.

Lemma sorted_ext {V} (a b : amap V) : sorted a -> sorted b ->
  (forall k, amap_get a k = amap_get b k) -> a = b.
Proof.
  revert b; induction a as [|[ka va] a IH]; intros [|[kb vb] b] Ha Hb Hext.
  - reflexivity.
  - specialize (Hext kb). rewrite (amap_get_head b kb vb) in Hext. discriminate.
  - specialize (Hext ka). rewrite (amap_get_head a ka va) in Hext. discriminate.
  - assert (Hk : ka = kb).
    { destruct (bytes_eqb ka kb) eqn:E; [apply bytes_eqb_eq; exact E|]. exfalso.
      destruct (bytes_ltb ka kb) eqn:L.
      - pose proof (Hext ka) as H. rewrite (amap_get_head a ka va) in H.
        rewrite (sorted_get_lt_head b kb vb ka Hb L) in H. discriminate.
      - assert (L2 : bytes_ltb kb ka = true) by (apply bytes_ltb_total; assumption).
        pose proof (Hext kb) as H. rewrite (amap_get_head b kb vb) in H.
        rewrite (sorted_get_lt_head a ka va kb Ha L2) in H. discriminate. }
    subst kb.
    assert (Hv : va = vb).
    { pose proof (Hext ka) as H. rewrite (amap_get_head a ka va), (amap_get_head b ka vb) in H.
      congruence. }
    subst vb. f_equal.
    destruct (sorted_inv _ _ Ha) as [Ha' Hfa]. destruct (sorted_inv _ _ Hb) as [Hb' Hfb].
    apply IH; [assumption|assumption|].
    intros k. specialize (Hext k). cbn [amap_get] in Hext.
    destruct (bytes_eqb k ka) eqn:E; [|exact Hext].
    apply bytes_eqb_eq in E. subst k.
    rewrite (get_none_of_lt a ka Ha' Hfa), (get_none_of_lt b ka Hb' Hfb). reflexivity.
Qed.

Lemma amap_rel_sorted {A B} (R : A -> B -> Prop) ma mb : amap_rel R ma mb -> sorted ma -> sorted mb.
Proof.
  intros H. induction H as [|x y ma mb [Hk _] Hrest IH]; intros Hs; [constructor|].
  destruct (sorted_inv _ _ Hs) as [Hs' Hf]. constructor; [apply IH; exact Hs'|].
  clear IH Hs Hs'. induction Hrest as [|x' y' ma mb [Hk' _] _ IH2]; [constructor|].
  pose proof (Forall_inv Hf) as H1. pose proof (Forall_inv_tail Hf) as H2.
  constructor; [|apply IH2; exact H2]. unfold key_lt in *. rewrite <- Hk, <- Hk'. exact H1.
Qed.

Section Len.
Context {W : Type}.
Implicit Types m : amap W.

Lemma amap_put_len m k v : sorted m ->
  len (fst (amap_put m k v)) = match amap_get m k with Some _ => len m | None => len m + 1 end.
Proof.
  induction m as [|[k' v'] m IH]; intros Hs; [reflexivity|].
  destruct (bytes_ltb k k') eqn:El.
  - rewrite (sorted_get_lt_head m k' v' k Hs El). cbn [amap_put]. rewrite (proj2 (bytes_eqb_neq k k')) by (apply bytes_ltb_neq; exact El).
    rewrite El. cbn [fst]. apply len_cons.
  - cbn [amap_put amap_get]. rewrite El. destruct (bytes_eqb k k'); cbn [fst]; [rewrite !len_cons; reflexivity|].
    specialize (IH (proj1 (sorted_inv _ _ Hs))). destruct (amap_put m k v) as [r o]. cbn [fst] in *. rewrite !len_cons, IH.
    destruct (amap_get m k); reflexivity.
Qed.
Lemma amap_get_some_len m k v : amap_get m k = Some v -> 0 < len m.
Proof. destruct m; [discriminate|]. intros _. rewrite len_cons. lia. Qed.
Lemma amap_del_len m k :
  len (fst (amap_del m k)) = match amap_get m k with Some _ => len m - 1 | None => len m end.
Proof.
  induction m as [|[k' v'] m IH]; cbn [amap_del amap_get fst]; [reflexivity|].
  destruct (bytes_eqb k k'); cbn [fst]; [rewrite len_cons; lia|].
  destruct (amap_del m k) as [r o]. cbn [fst] in *. rewrite !len_cons, IH.
  destruct (amap_get m k) eqn:Eg; [|reflexivity]. apply amap_get_some_len in Eg. lia.
Qed.
Lemma amap_len0_get m k : len m = 0 -> amap_get m k = None.
Proof. intros H. apply len_0_nil in H. subst. reflexivity. Qed.
Lemma amap_put_same_val m x v : sorted m -> amap_get m x = Some v -> fst (amap_put m x v) = m.
Proof.
  intros Hs Hg. apply sorted_ext; [apply amap_put_sorted; exact Hs|exact Hs|].
  intros y. rewrite amap_get_put. destruct (bytes_eqb y x) eqn:E; [apply bytes_eqb_eq in E; subst; auto|reflexivity].
Qed.
Lemma amap_del_absent m k : amap_get m k = None -> fst (amap_del m k) = m.
Proof.
  induction m as [|[k0 v0] m IH]; cbn [amap_get amap_del fst]; [reflexivity|].
  destruct (bytes_eqb k k0); [discriminate|]. intros H. specialize (IH H).
  destruct (amap_del m k) as [r o]. cbn [fst] in *. rewrite IH. reflexivity.
Qed.
End Len.

Lemma in_amap_put {V} (m : amap V) k v x : In x (fst (amap_put m k v)) -> x = (k, v) \/ In x m.
Proof.
  induction m as [|[k0 v0] m IH]; cbn [amap_put fst].
  - intros [H|[]]; auto.
  - destruct (bytes_eqb k k0).
    + cbn [fst]. intros [H|H]; [auto|right; right; exact H].
    + destruct (bytes_ltb k k0).
      * cbn [fst]. intros [H|H]; [auto|right; exact H].
      * destruct (amap_put m k v) as [r o]. cbn [fst] in *. intros [H|H].
        -- right; left; exact H.
        -- destruct (IH H) as [E|E]; [auto|right; right; exact E].
Qed.
Lemma in_amap_del {V} (m : amap V) k x : In x (fst (amap_del m k)) -> In x m.
Proof.
  induction m as [|[k0 v0] m IH]; cbn [amap_del fst]; [auto|].
  destruct (bytes_eqb k k0).
  - cbn [fst]. intros H. right. exact H.
  - destruct (amap_del m k) as [r o]. cbn [fst] in *. intros [H|H]; [left; exact H|right; apply IH; exact H].
Qed.
