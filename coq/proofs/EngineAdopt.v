(* EngineAdopt.v — the adoption step of Open (loadMergeFiles): which data files the directory holds
   afterwards.  Every list of files here is ascending, hence determined by what older_get finds in it
   (asc_ext): each of the three loops is described by one such equation, and so is their composition. *)
From Coq Require Import ZArith Lia ZifyN ZifyNat ZifyBool Sorting.Sorted.
From KV Require Import Bytes Engine EngineFiles EngineLog EngineRecover EngineOpen.
Open Scope N_scope.

Lemma asc_del o id : asc o -> asc (files_del o id).
Proof.
  assert (Habove : forall lo l, ids_above l lo -> ids_above (files_del l id) lo).
  { intros lo. induction l as [|[i g] l IH]; cbn [ids_above files_del]; [auto|]. intros [H1 H2].
    destruct (i =? id); [exact H2|cbn [ids_above]; auto]. }
  induction o as [|[i g] o IH]; cbn [asc files_del]; [auto|]. intros [H1 H2].
  destruct (i =? id); [exact H2|cbn [asc]; auto].
Qed.
Lemma files_del_get o id x : asc o -> older_get (files_del o id) x = if x =? id then None else older_get o x.
Proof.
  induction o as [|[i g] o IH]; cbn [asc files_del older_get]; [intros _; destruct (x =? id); reflexivity|].
  intros [H1 H2]. destruct (i =? id) eqn:E.
  - assert (i = id) by lia. subst i. destruct (x =? id) eqn:E2.
    + apply (ids_above_none o id x H1). lia.
    + destruct (id =? x) eqn:E3; [lia|reflexivity].
  - cbn [older_get]. destruct (i =? x) eqn:E2; [destruct (x =? id) eqn:E3; [lia|reflexivity]|exact (IH H2)].
Qed.

Lemma asc_set o id f : asc o -> asc (older_set o id f).
Proof.
  assert (Habove : forall lo l, ids_above l lo -> lo < id -> ids_above (older_set l id f) lo).
  { intros lo. induction l as [|[i g] l IH]; cbn [ids_above older_set]; [intros _ H; cbn; auto|].
    intros [H1 H2] Hlt. destruct (i =? id); [cbn [ids_above]; auto|]. destruct (id <? i); cbn [ids_above]; auto. }
  induction o as [|[i g] o IH]; cbn [asc older_set]; [intros _; cbn; auto|].
  intros [H1 H2]. destruct (i =? id) eqn:E.
  - assert (i = id) by lia. subst i. cbn [asc]. auto.
  - destruct (id <? i) eqn:E2; cbn [asc ids_above].
    + split; [split; [lia|eapply ids_above_weaken; [|exact H1]; lia]|auto].
    + split; [apply Habove; [exact H1|lia]|auto].
Qed.

Lemma files_get_eq fs id : files_get fs id = older_get fs id.
Proof. destruct fs; reflexivity. Qed.

(* the merge directory holds the rewritten files j .. n0-1: the files below j were moved by an
   adoption that was interrupted *)
Lemma count_rewritten_from mf j n0 mid : (forall x, older_get mf x <> None <-> j <= x /\ x < n0) -> j < n0 -> n0 <= mid ->
  forall fuel id acc, (N.to_nat (mid - id) <= fuel)%nat -> acc = (if id <=? j then 0 else N.min id n0) ->
  count_rewritten mf fuel id mid acc = n0.
Proof.
  intros Hpres Hj Hn. induction fuel as [|fuel IH]; intros id acc Hf Hacc; cbn [count_rewritten].
  - subst acc. clear Hpres. destruct (id <=? j) eqn:E; lia.
  - destruct (mid <=? id) eqn:E.
    + subst acc. clear Hpres IH. destruct (id <=? j) eqn:E2; lia.
    + apply IH; [lia|]. rewrite files_get_eq. destruct (older_get mf id) as [g|] eqn:Eg.
      * assert (Hid : j <= id /\ id < n0) by (apply Hpres; rewrite Eg; discriminate). clear Hpres IH.
        destruct (id + 1 <=? j) eqn:E2; lia.
      * assert (Hid : ~ (j <= id /\ id < n0)) by (intros H; apply Hpres in H; contradiction). subst acc. clear Hpres IH.
        destruct (id <=? j) eqn:E1; destruct (id + 1 <=? j) eqn:E2; lia.
Qed.

Lemma count_rewritten_none mf mid : (forall x, older_get mf x = None) ->
  forall fuel id acc, count_rewritten mf fuel id mid acc = acc.
Proof.
  intros Hn. induction fuel as [|fuel IH]; intros id acc; cbn [count_rewritten]; [reflexivity|].
  destruct (mid <=? id); [reflexivity|]. rewrite files_get_eq, Hn. apply IH.
Qed.

Lemma remove_originals_get mid : forall fuel data id, asc data -> (N.to_nat (mid - id) <= fuel)%nat ->
  asc (fst (remove_originals data fuel id mid)) /\
  forall x, older_get (fst (remove_originals data fuel id mid)) x = if (id <=? x) && (x <? mid) then None else older_get data x.
Proof.
  induction fuel as [|fuel IH]; intros data id Ha Hf; cbn [remove_originals fst].
  - split; [exact Ha|]. intros x. destruct ((id <=? x) && (x <? mid)) eqn:E; [lia|reflexivity].
  - destruct (mid <=? id) eqn:E.
    + split; [exact Ha|]. intros x. destruct ((id <=? x) && (x <? mid)) eqn:E2; [lia|reflexivity].
    + destruct (IH (files_del data id) (id + 1) (asc_del _ _ Ha)) as [A C]; [lia|].
      destruct (remove_originals (files_del data id) fuel (id + 1) mid) as [data' evs]. cbn [fst] in *.
      split; [exact A|]. intros x. rewrite C, (files_del_get data id x Ha).
      destruct (x =? id) eqn:E1; destruct ((id + 1 <=? x) && (x <? mid)) eqn:E2; destruct ((id <=? x) && (x <? mid)) eqn:E3;
        try reflexivity; lia.
Qed.

Lemma remove_originals_zero data fuel id mid : (forall x, id <= x -> x < mid -> older_get data x = None) ->
  asc data -> fst (remove_originals data fuel id mid) = data.
Proof.
  revert data id. induction fuel as [|fuel IH]; intros data id Hn Ha; cbn [remove_originals fst]; [reflexivity|].
  destruct (mid <=? id) eqn:E; [reflexivity|].
  assert (Hdel : files_del data id = data).
  { apply asc_ext; [apply asc_del; exact Ha|exact Ha|]. intros x. rewrite (files_del_get data id x Ha).
    destruct (x =? id) eqn:E2; [|reflexivity]. assert (x = id) by lia. subst x. symmetry. apply Hn; lia. }
  rewrite Hdel. specialize (IH data (id + 1) ltac:(intros x H1 H2; apply Hn; lia) Ha).
  destruct (remove_originals data fuel (id + 1) mid) as [data' evs]. exact IH.
Qed.

Lemma rename_rewritten_get n : forall fuel data mf id, asc data -> asc mf -> (N.to_nat (n - id) <= fuel)%nat ->
  let res := fst (fst (rename_rewritten data mf fuel id n)) in
  asc res /\ forall x, older_get res x =
    match (if (id <=? x) && (x <? n) then older_get mf x else None) with Some g => Some g | None => older_get data x end.
Proof.
  induction fuel as [|fuel IH]; intros data mf id Ha Hm Hf; cbn [rename_rewritten fst].
  - split; [exact Ha|]. intros x. destruct ((id <=? x) && (x <? n)) eqn:E; [lia|reflexivity].
  - destruct (n <=? id) eqn:E.
    + split; [exact Ha|]. intros x. destruct ((id <=? x) && (x <? n)) eqn:E2; [lia|reflexivity].
    + (* either way, at id the data directory now holds what the merge directory held, if it held something *)
      assert (Hstep : forall data1 mf1, asc data1 -> asc mf1 ->
                (forall x, x <> id -> older_get mf1 x = older_get mf x /\ older_get data1 x = older_get data x) ->
                older_get data1 id = match older_get mf id with Some g => Some g | None => older_get data id end ->
                let res := fst (fst (rename_rewritten data1 mf1 fuel (id + 1) n)) in
                asc res /\ forall x, older_get res x =
                  match (if (id <=? x) && (x <? n) then older_get mf x else None) with Some g => Some g | None => older_get data x end).
      { intros data1 mf1 Ha1 Hm1 Hother Hid. destruct (IH data1 mf1 (id + 1) Ha1 Hm1) as [A C]; [lia|].
        split; [exact A|]. intros x. rewrite C. destruct (N.eq_dec x id) as [->|Hx].
        - destruct ((id + 1 <=? id) && (id <? n)) eqn:E2; [lia|]. destruct ((id <=? id) && (id <? n)) eqn:E3; [exact Hid|lia].
        - destruct (Hother x Hx) as [-> ->].
          destruct ((id + 1 <=? x) && (x <? n)) eqn:E2; destruct ((id <=? x) && (x <? n)) eqn:E3; try reflexivity; lia. }
      rewrite files_get_eq. destruct (older_get mf id) as [g|] eqn:Eg.
      * specialize (Hstep (older_set data id g) (files_del mf id) (asc_set _ _ _ Ha) (asc_del _ _ Hm)).
        destruct (rename_rewritten (older_set data id g) (files_del mf id) fuel (id + 1) n) as [[data' m'] evs].
        apply Hstep; [|rewrite older_get_set, N.eqb_refl; reflexivity].
        intros x Hx. rewrite (files_del_get mf id x Hm), older_get_set. destruct (x =? id) eqn:E1; [lia|auto].
      * apply (Hstep data mf Ha Hm); [auto|reflexivity].
Qed.

Lemma adopt_layout (P : N * lfile -> Prop) mf data data2 n mid :
  asc mf -> asc data -> asc data2 -> (forall x, older_get mf x <> None <-> x < n) -> n <= mid ->
  (forall x, older_get data2 x = if x <? n then older_get mf x else if x <? mid then None else older_get data x) ->
  below n data2 = mf /\ from_ mid data2 = from_ mid data /\
  (forall id f, In (id, f) data2 -> id < n \/ mid <= id) /\
  (Forall P mf -> Forall P data -> Forall P data2).
Proof.
  intros Hm Hd H2 Hpres Hn Hget.
  assert (Hpart : forall id f, In (id, f) data2 -> (id < n /\ In (id, f) mf) \/ (mid <= id /\ In (id, f) data)).
  { intros id f Hin. pose proof (asc_get_in _ _ _ H2 Hin) as Hg. rewrite Hget in Hg.
    destruct (id <? n) eqn:E1; [left; split; [lia|exact (older_get_some_in _ _ _ Hg)]|].
    destruct (id <? mid) eqn:E2; [discriminate|right; split; [lia|exact (older_get_some_in _ _ _ Hg)]]. }
  split; [|split; [|split]].
  - apply asc_ext; [apply asc_filter; exact H2|exact Hm|]. intros x. rewrite older_get_below, Hget.
    destruct (x <? n) eqn:E; [reflexivity|]. destruct (older_get mf x) eqn:Eg; [|reflexivity].
    assert (x < n) by (apply Hpres; rewrite Eg; discriminate). lia.
  - apply asc_ext; [apply asc_filter; exact H2|apply asc_filter; exact Hd|]. intros x. rewrite !older_get_from_, Hget.
    destruct (mid <=? x) eqn:E; [|reflexivity]. destruct (x <? n) eqn:E2; [lia|]. destruct (x <? mid) eqn:E3; [lia|reflexivity].
  - intros id f Hin. destruct (Hpart id f Hin) as [[H _]|[H _]]; auto.
  - intros Pm Pd. rewrite Forall_forall in *. intros [id f] Hin. destruct (Hpart id f Hin) as [[_ H]|[_ H]]; auto.
Qed.

(* the rewritten files: ids 0 .. n-1, each a well-formed closed file *)
Definition merged_ok (mf : list (N * lfile)) (n : N) : Prop :=
  asc mf /\ Forall file_ok mf /\ (forall x, older_get mf x <> None <-> x < n).

Lemma load_merge_files_adopts k md mid : k_merge k = Some md -> m_marker md = Some mid -> mid <> 0 ->
  let fuel := S (N.to_nat mid) in
  let n := count_rewritten (m_files md) fuel 0 mid 0 in
  exists ev, load_merge_files k =
    (mkDisk (if 0 <? n then fst (fst (rename_rewritten (fst (remove_originals (k_data k) fuel n mid)) (m_files md) fuel 0 n))
             else k_data k)
            (match m_hint md with Some h => Some h | None => k_hint k end) None, mid, ev).
Proof.
  intros Hm Hmk Hmid. unfold load_merge_files. rewrite Hm, Hmk. destruct (mid =? 0) eqn:E0; [lia|].
  destruct (0 <? _).
  - destruct (remove_originals _ _ _ _) as [data1 ev1]. destruct (rename_rewritten _ _ _ _ _) as [[data2 mf2] ev2].
    destruct (m_hint md); eexists; reflexivity.
  - destruct (m_hint md); eexists; reflexivity.
Qed.

(* j = 0 is the directory as Merge left it; 0 < j is an adoption that was interrupted and is run again:
   the rewritten files below j are already in the data directory, the originals from n to mid are gone *)
Theorem load_merge_resume k md mid n j h MFull :
  k_merge k = Some md -> m_marker md = Some mid -> 0 < mid -> 0 < n -> n <= mid -> j <= n ->
  merged_ok MFull n -> m_files md = from_ j MFull ->
  asc (k_data k) -> Forall file_ok (k_data k) ->
  (forall x, x < j -> older_get (k_data k) x = older_get MFull x) ->
  (0 < j -> forall x, n <= x -> x < mid -> older_get (k_data k) x = None) ->
  (m_hint md = Some h \/ (m_hint md = None /\ k_hint k = Some h /\ j = n)) ->
  exists data2 ev, load_merge_files k = (mkDisk data2 (Some h) None, mid, ev) /\
    asc data2 /\ Forall file_ok data2 /\
    below n data2 = MFull /\ from_ mid data2 = from_ mid (k_data k) /\
    (forall id f, In (id, f) data2 -> id < n \/ mid <= id).
Proof.
  intros Hm Hmk Hmid Hn0 Hn Hj (Hma & Hmok & Hpres) Hmf Hda Hdok Hinst Hrem Hhint.
  destruct (load_merge_files_adopts k md mid Hm Hmk ltac:(lia)) as [ev Hload]. cbv zeta in Hload.
  assert (Hh : match m_hint md with Some h0 => Some h0 | None => k_hint k end = Some h)
    by (destruct Hhint as [->|(-> & -> & _)]; reflexivity).
  rewrite Hh in Hload. clear Hh Hhint.
  assert (Hnone : forall x, n <= x -> older_get MFull x = None).
  { intros x Hx. destruct (older_get MFull x) eqn:Eg; [|reflexivity]. assert (x < n) by (apply Hpres; rewrite Eg; discriminate). lia. }
  assert (Hmfget : forall x, older_get (m_files md) x = if j <=? x then older_get MFull x else None)
    by (intros x; rewrite Hmf; apply older_get_from_).
  eexists _, ev. split; [exact Hload|]. clear Hload.
  match goal with |- asc ?d /\ _ => enough (H : asc d /\ forall x, older_get d x =
      if x <? n then older_get MFull x else if x <? mid then None else older_get (k_data k) x) end.
  { destruct H as [A2 Hget]. destruct (adopt_layout file_ok MFull _ _ n mid Hma Hda A2 Hpres Hn Hget) as (L1 & L2 & L3 & L4). auto. }
  destruct (N.eq_dec j n) as [->|Hjn].
  - (* j = n: nothing is counted, nothing is done *)
    rewrite (count_rewritten_none (m_files md) mid)
      by (intros x; rewrite Hmfget; destruct (n <=? x) eqn:E; [apply Hnone; lia|reflexivity]).
    change (0 <? 0) with false. cbv iota. split; [exact Hda|]. intros x.
    destruct (x <? n) eqn:Ex; [apply Hinst; lia|]. destruct (x <? mid) eqn:Ex2; [apply Hrem; lia|reflexivity].
  - rewrite (count_rewritten_from (m_files md) j n mid) with (acc := 0) (id := 0); [| |lia|exact Hn|lia|destruct (0 <=? j) eqn:E; [reflexivity|lia]].
    2: { intros x. rewrite Hmfget. destruct (j <=? x) eqn:E; [rewrite Hpres; lia|split; [congruence|lia]]. }
    destruct (0 <? n) eqn:E1; [|lia].
    destruct (remove_originals_get mid (S (N.to_nat mid)) (k_data k) n Hda) as [A1 C1]; [lia|].
    destruct (rename_rewritten_get n (S (N.to_nat mid)) _ (m_files md) 0 A1) as [A2 C2];
      [rewrite Hmf; apply asc_filter; exact Hma|lia|].
    split; [exact A2|]. intros x. rewrite C2, C1, Hmfget. clear C1 C2 A1 A2.
    destruct (N.lt_ge_cases x n) as [Hx|Hx].
    + rewrite (proj2 (N.ltb_lt x n) Hx), (proj2 (N.leb_le 0 x) (N.le_0_l x)), (proj2 (N.leb_gt n x) Hx). cbn [andb].
      destruct (j <=? x) eqn:Ejx; [|apply Hinst; lia].
      destruct (older_get MFull x) eqn:Eg; [reflexivity|]. apply Hpres in Hx. contradiction.
    + rewrite (proj2 (N.ltb_ge x n) Hx), Bool.andb_false_r, (proj2 (N.leb_le n x) Hx). reflexivity.
Qed.

Theorem load_merge_adopt k md mid n h :
  k_merge k = Some md -> m_marker md = Some mid -> 0 < mid -> m_hint md = Some h ->
  merged_ok (m_files md) n -> 0 < n -> n <= mid ->
  asc (k_data k) -> Forall file_ok (k_data k) ->
  exists data2 ev, load_merge_files k = (mkDisk data2 (Some h) None, mid, ev) /\
    asc data2 /\ Forall file_ok data2 /\
    below n data2 = m_files md /\ from_ mid data2 = from_ mid (k_data k) /\
    (forall id f, In (id, f) data2 -> id < n \/ mid <= id).
Proof.
  intros Hm Hmk Hmid Hh Hmok Hn0 Hn Hda Hdok.
  apply (load_merge_resume k md mid n 0 h (m_files md)); auto; try lia.
  symmetry. apply from_zero.
Qed.
