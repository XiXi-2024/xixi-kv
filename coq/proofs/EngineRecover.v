(* EngineRecover.v — recovery: replaying the log rebuilds exactly the map the log denotes;
   every live operation extends the log by the records of its mutation; Close leaves a directory
   that holds the log.  (Open of such a directory, and hence Close followed by Open: EngineOpen.) *)
From Coq Require Import ZArith Lia ZifyN ZifyNat ZifyBool Sorting.Sorted.
From KV Require Import Bytes GenConsts Chunk Record Engine Script BytesLemmas AMapLemmas
  ListLemmas EngineFiles EngineOps EngineInv EngineLog EngineBatch EngineRefine.
Open Scope N_scope.

Lemma sreplay_app : forall a b m t,
  sreplay m t (a ++ b) = sreplay (fst (sreplay m t a)) (snd (sreplay m t a)) b.
Proof.
  induction a as [|r a IH]; intros b m t; cbn [app sreplay fst snd]; [reflexivity|].
  destruct (r_batch r =? 0); [apply IH|]. destruct (r_type r =? rt_BatchFinished); apply IH.
Qed.

Lemma fold_update_index : forall l d,
  fold_left (fun acc e => update_index acc (r_key (fst e)) (r_type (fst e)) (snd e)) l d = apply_staged d l.
Proof.
  induction l as [|[r p] l IH]; intros d; cbn [fold_left]; [reflexivity|].
  rewrite apply_staged_cons_idx_upd. cbn [fst snd]. rewrite update_index_idx_upd. apply IH.
Qed.

(* pending batches of the engine (records with positions) against those of the specification *)
Definition txn_ok (d : db) (te : txns) (ts : stx) : Prop :=
  Forall2 (fun (e : N * list (record * pos)) (s : N * list record) =>
             fst e = fst s /\ map fst (snd e) = snd s /\
             (forall r p, In (r, p) (snd e) -> rec_at d p = Some r)) te ts.

Lemma txn_ok_get d te ts id : txn_ok d te ts ->
  map fst (txn_get te id) = stx_get ts id /\ (forall r p, In (r, p) (txn_get te id) -> rec_at d p = Some r).
Proof.
  induction 1 as [|[i l] [j s] te ts (Hi & Hm & Hr) _ IH]; cbn [txn_get stx_get]; [split; [reflexivity|intros r p []]|].
  cbn [fst snd] in *. subst j. destruct (i =? id); [split; assumption|exact IH].
Qed.
Lemma txn_ok_del d te ts id : txn_ok d te ts -> txn_ok d (txn_del te id) (stx_del ts id).
Proof.
  induction 1 as [|[i l] [j s] te ts (Hi & Hm & Hr) Hrest IH]; cbn [txn_del stx_del]; [constructor|].
  cbn [fst snd] in *. subst j. destruct (i =? id); [exact Hrest|]. constructor; [auto|exact IH].
Qed.
Lemma txn_ok_add d te ts id r p : txn_ok d te ts -> rec_at d p = Some r ->
  txn_ok d (txn_add te id (r, p)) (stx_add ts id r).
Proof.
  intros H Hp. induction H as [|[i l] [j s] te ts (Hi & Hm & Hr) Hrest IH]; cbn [txn_add stx_add].
  - constructor; [|constructor]. cbn [fst snd]. repeat split; auto. intros r0 p0 [Heq|[]]. injection Heq as <- <-. exact Hp.
  - cbn [fst snd] in *. subst j. destruct (i =? id).
    + constructor; [|exact Hrest]. cbn [fst snd]. split; [reflexivity|]. split.
      * rewrite map_app, Hm. reflexivity.
      * intros r0 p0 Hin. apply in_app_or in Hin. destruct Hin as [Hin|[Heq|[]]]; [auto|]. injection Heq as <- <-. exact Hp.
    + constructor; [auto|exact IH].
Qed.
Lemma txn_ok_index_only d d' te ts : index_only d d' -> txn_ok d te ts -> txn_ok d' te ts.
Proof. intros (ix & t & rc & ->) H. exact H. Qed.

Lemma replay_recs_spec : forall rps d te m ts,
  Inv d -> R d m -> txn_ok d te ts -> (forall r p, In (r, p) rps -> rec_at d p = Some r) ->
  Inv (fst (replay_recs d te rps)) /\
  R (fst (replay_recs d te rps)) (fst (sreplay m ts (map fst rps))) /\
  txn_ok (fst (replay_recs d te rps)) (snd (replay_recs d te rps)) (snd (sreplay m ts (map fst rps))).
Proof.
  induction rps as [|[r p] rps IH]; intros d te m ts HI HR Ht Hall; cbn [replay_recs map sreplay fst snd]; [auto|].
  assert (Hp : rec_at d p = Some r) by (apply Hall; left; reflexivity).
  (* whatever the record does to the index, the later records are still found at their positions *)
  assert (Hnext : forall d', index_only d d' -> forall r0 p0, In (r0, p0) rps -> rec_at d' p0 = Some r0).
  { intros d' Hio r0 p0 Hin. rewrite (rec_at_index_only _ _ Hio). apply Hall. right. exact Hin. }
  destruct (r_batch r =? 0).
  - pose proof (update_index_index_only d (r_key r) (r_type r) p) as Hio. rewrite update_index_idx_upd in *.
    destruct (Inv_R_index d m r p r HI HR Hp eq_refl eq_refl eq_refl) as [HI1 HR1].
    apply IH; [exact HI1|exact HR1|exact (txn_ok_index_only _ _ _ _ Hio Ht)|exact (Hnext _ Hio)].
  - destruct (r_type r =? rt_BatchFinished).
    + rewrite fold_update_index. pose proof (apply_staged_index_only (txn_get te (r_batch r)) d) as Hio.
      destruct (txn_ok_get d te ts (r_batch r) Ht) as [Hm Hr].
      destruct (apply_staged_spec (txn_get te (r_batch r)) d m HI HR) as (HI1 & HR1); [intros r0 p0 Hin; exists r0; auto|].
      rewrite Hm in HR1.
      apply IH; [exact HI1|exact HR1|exact (txn_ok_del _ _ _ _ (txn_ok_index_only _ _ _ _ Hio Ht))|exact (Hnext _ Hio)].
    + apply IH; [exact HI|exact HR|apply txn_ok_add; assumption|exact (Hnext d (index_only_refl d))].
Qed.

Lemma replay_files_spec : forall files d te m ts,
  Inv d -> R d m -> txn_ok d te ts ->
  (forall id f r p, In (id, f) files -> In (r, p) (lf_recs f) -> rec_at d p = Some r) ->
  Inv (fst (replay_files d te files 0)) /\
  R (fst (replay_files d te files 0)) (fst (sreplay m ts (files_log files))).
Proof.
  induction files as [|[id f] files IH]; intros d te m ts HI HR Ht Hall; cbn [replay_files]; [auto|].
  destruct (id <? 0) eqn:E; [lia|]. rewrite files_log_cons, sreplay_app. cbn [snd]. unfold file_log.
  destruct (replay_recs_spec (lf_recs f) d te m ts HI HR Ht) as (A & B & C).
  { intros r p Hin. eapply Hall; [left; reflexivity|exact Hin]. }
  pose proof (replay_recs_index_only (lf_recs f) d te) as Hio.
  destruct (replay_recs d te (lf_recs f)) as [d1 te1]. cbn [fst snd] in *.
  apply IH; [exact A|exact B|exact C|].
  intros id0 f0 r p Hin1 Hin2. rewrite (rec_at_index_only _ _ Hio). eapply Hall; [right; exact Hin1|exact Hin2].
Qed.

Fixpoint asc (fs : list (N * lfile)) : Prop :=
  match fs with [] => True | (i, _) :: r => ids_above r i /\ asc r end.
(* a file as Close leaves it: physical = logical size, so that Open finds the same writer position *)
Definition file_ok (x : N * lfile) : Prop :=
  wf_lfile (snd x) /\ pos_ok (fst x) (snd x) /\ lf_phys (snd x) = lf_size (snd x).
Definition disk_ok (k : disk) : Prop := k_merge k = None /\ asc (k_data k) /\ Forall file_ok (k_data k).

Lemma asc_ids a b : map fst a = map fst b -> asc b -> asc a.
Proof.
  revert b. induction a as [|[i f] a IH]; intros [|[j g] b]; cbn [map fst asc]; try discriminate; [auto|].
  intros [= -> Hm] [H1 H2]. split; [exact (ids_above_ids a b j Hm H1)|exact (IH b Hm H2)].
Qed.

Lemma ids_below_in o bound i f : ids_below o bound -> In (i, f) o -> i < bound.
Proof. induction o as [|[j g] o IH]; cbn [ids_below]; [intros _ []|]. intros (H1 & _ & H3) [[= -> _]|Hin]; [exact H1|exact (IH H3 Hin)]. Qed.
Lemma ids_below_asc o bound : ids_below o bound -> asc o.
Proof. induction o as [|[j g] o IH]; cbn [ids_below asc]; [auto|]. intros (_ & H2 & H3). auto. Qed.

Lemma asc_app_last a id f : asc (a ++ [(id, f)]) -> ids_below a id /\ asc a.
Proof.
  induction a as [|[i g] a IH]; cbn [app asc ids_below]; [auto|].
  rewrite ids_above_app. intros [[H1 Hlt] H2]. destruct (IH H2). auto.
Qed.
Lemma asc_get_in o id f : asc o -> In (id, f) o -> older_get o id = Some f.
Proof.
  induction o as [|[i g] o IH]; cbn [older_get asc]; [intros _ []|]. intros [Ha1 Ha2] Hin.
  destruct Hin as [[= -> ->]|Hin]; [rewrite N.eqb_refl; reflexivity|].
  pose proof (ids_above_in _ _ _ _ Ha1 Hin). destruct (i =? id) eqn:E; [lia|auto].
Qed.
Lemma older_get_in o id f : ids_below o (id + 1) -> asc o -> In (id, f) o -> older_get o id = Some f.
Proof. intros _. apply asc_get_in. Qed.

Lemma files_log_single id f : files_log [(id, f)] = file_log f.
Proof. unfold files_log. cbn [map concat snd]. apply app_nil_r. Qed.

(* the log-level invariant of an open database: the files are in order and the index denotes what replaying the
   log yields.  Open on a crash image gives this much; batches may be left pending *)
Definition LogOK (d : db) (m : smap) : Prop :=
  Inv d /\ InvO d /\ InvP d /\ R d m /\ fst (sreplay [] [] (log d)) = m.

Lemma db_rotate_LogOK d m d' ev : LogOK d m -> db_rotate d = (d', ev) ->
  LogOK d' m /\ log d' = log d /\ d_cfg d' = d_cfg d.
Proof.
  intros (HI & HO & HP & HR & Hm) Hrot.
  destruct (db_rotate_log d d' ev (proj1 HI) HO HP Hrot) as (Hlog & HF' & HO' & HP' & Hext).
  rewrite (db_rotate_inv _ _ _ Hrot) in *. split; [|split; [exact Hlog|reflexivity]].
  split; [exact (Inv_extends _ _ HI HF' Hext eq_refl)|]. split; [exact HO'|]. split; [exact HP'|].
  split; [exact (R_extends _ _ m Hext eq_refl HR)|]. rewrite Hlog. exact Hm.
Qed.

Lemma picked_Inv c older aid af :
  asc (older ++ [(aid, af)]) ->
  Forall (fun x => wf_lfile (snd x) /\ pos_ok (fst x) (snd x)) (older ++ [(aid, af)]) ->
  let d2 := mkDb c aid af older [] 0 0 0 in
  Inv d2 /\ R d2 [] /\ ids_below older aid /\
  (forall id f r p, In (id, f) (older ++ [(aid, af)]) -> In (r, p) (lf_recs f) -> rec_at d2 p = Some r).
Proof.
  intros Hasc Hok d2. destruct (asc_app_last _ _ _ Hasc) as [Hbelow Hasco].
  assert (Hwfall : forall id f, In (id, f) (older ++ [(aid, af)]) -> wf_lfile f /\ pos_ok id f).
  { intros id f Hin. rewrite Forall_forall in Hok. exact (Hok _ Hin). }
  assert (Hfiles : forall id f, In (id, f) (older ++ [(aid, af)]) -> file_of d2 id = Some f).
  { intros id f Hin. unfold file_of, d2. cbn [d_active_id d_active d_older].
    apply in_app_or in Hin. destruct Hin as [Hin|[Heq|[]]].
    - destruct (id =? aid) eqn:E; [|apply asc_get_in; assumption].
      exfalso. assert (id = aid) by lia. subst id. pose proof (asc_get_in _ _ _ Hasco Hin) as Hg.
      rewrite (older_get_none_below _ _ Hbelow) in Hg. discriminate.
    - injection Heq as -> ->. rewrite N.eqb_refl. reflexivity. }
  split; [|split; [constructor|split; [exact Hbelow|]]].
  - split; [split|split]; unfold d2; cbn [d_active d_older d_active_id d_index].
    + apply (Hwfall aid af). apply in_or_app. right. left. reflexivity.
    + intros id f Hg. pose proof (older_get_some_in _ _ _ Hg) as Hin. split.
      * apply (Hwfall id f). apply in_or_app. left. exact Hin.
      * exact (ids_below_in _ _ _ _ Hbelow Hin).
    + constructor.
    + intros k0 p [].
  - intros id f r p Hin Hrp. destruct (Hwfall id f Hin) as [_ Hpo]. destruct (Hpo r p Hrp) as [Hfid Hlk].
    unfold rec_at. rewrite Hfid, (Hfiles id f Hin). exact Hlk.
Qed.

Lemma scan_LogOK c older aid af :
  asc (older ++ [(aid, af)]) ->
  Forall (fun x => wf_lfile (snd x) /\ pos_ok (fst x) (snd x)) (older ++ [(aid, af)]) ->
  let d3 := fst (replay_files (mkDb c aid af older [] 0 0 0) [] (older ++ [(aid, af)]) 0) in
  LogOK d3 (fst (sreplay [] [] (files_log (older ++ [(aid, af)])))) /\
  log d3 = files_log (older ++ [(aid, af)]).
Proof.
  intros Hasc Hok. destruct (picked_Inv c older aid af Hasc Hok) as (HI2 & HR2 & Hbelow & Hres).
  destruct (replay_files_spec (older ++ [(aid, af)]) _ [] [] [] HI2 HR2 (Forall2_nil _) Hres) as (HI3 & HR3).
  (* replay leaves the files as picked *)
  destruct (replay_files_index_only (older ++ [(aid, af)]) (mkDb c aid af older [] 0 0 0) [] 0) as (ix & t & rc & E).
  cbn [d_cfg d_active_id d_active d_older d_bytes_write] in E. cbv zeta. rewrite E in *.
  assert (Hlog3 : log (mkDb c aid af older ix 0 t rc) = files_log (older ++ [(aid, af)])).
  { unfold log. cbn [d_older d_active]. rewrite files_log_app, files_log_single. reflexivity. }
  rewrite Forall_app in Hok. destruct Hok as [Hoko Hoka].
  split; [|exact Hlog3].
  split; [exact HI3|]. split; [exact Hbelow|]. split; [|split; [exact HR3|rewrite Hlog3; reflexivity]].
  split; [exact (proj2 (Forall_inv Hoka))|]. cbn [d_older]. intros id f Hg.
  rewrite Forall_forall in Hoko. exact (proj2 (Hoko _ (older_get_some_in _ _ _ Hg))).
Qed.

Lemma fresh_db_LogOK c : LogOK (fresh_db c) [] /\ log (fresh_db c) = [].
Proof.
  destruct (fresh_db_Inv c) as [HI HR]. pose proof (proj1 (opened_fields (c_io c) lf_empty)) as Hr. cbn [lf_recs lf_empty] in Hr.
  assert (Hlog : log (fresh_db c) = []) by (unfold log, file_log; cbn [fresh_db d_older d_active]; rewrite Hr; reflexivity).
  split; [|exact Hlog]. split; [exact HI|]. split; [exact I|]. split; [|split; [exact HR|rewrite Hlog; reflexivity]].
  split; cbn [fresh_db d_active d_older]; [|intros id f H; discriminate]. intros r p Hin. rewrite Hr in Hin. destruct Hin.
Qed.

(* the pending batches of the specification's replay while the records fl of batch id wait for their seal *)
Definition pend (id : N) (fl : list record) : stx :=
  match fl with [] => [] | _ => [(id, map (tag id) fl)] end.
(* r is a Put or a Delete record, not a seal *)
Definition ok_type (r : record) : Prop := (r_type r =? rt_BatchFinished) = false.

Lemma sreplay_tagged id : id <> 0 -> forall st fl m,
  Forall ok_type st ->
  sreplay m (pend id fl) (map (tag id) st) = (m, pend id (fl ++ st)).
Proof.
  intros Hid. induction st as [|r st IH]; intros fl m Hty; cbn [map sreplay].
  - rewrite app_nil_r. reflexivity.
  - pose proof (Forall_inv Hty) as Hr. unfold ok_type in Hr.
    cbn [tag r_batch r_type]. destruct (id =? 0) eqn:E; [lia|]. rewrite Hr.
    assert (Hadd : stx_add (pend id fl) id (tag id r) = pend id (fl ++ [r])).
    { destruct fl as [|x fl]; cbn [pend app stx_add map]; [reflexivity|]. rewrite N.eqb_refl.
      rewrite map_app. reflexivity. }
    rewrite Hadd, IH by exact (Forall_inv_tail Hty). rewrite <- app_assoc. reflexivity.
Qed.

Lemma sreplay_seal id fl m key : id <> 0 ->
  sreplay m (pend id fl) [mkRec rt_BatchFinished key [] id] = (s_apply_recs m fl, []).
Proof.
  intros Hid. cbn [sreplay r_batch r_type]. destruct (id =? 0) eqn:E; [lia|].
  replace (rt_BatchFinished =? rt_BatchFinished) with true by reflexivity.
  destruct fl as [|x fl]; cbn [pend stx_get stx_del]; [reflexivity|].
  rewrite N.eqb_refl. rewrite (s_apply_recs_tag id (x :: fl)). reflexivity.
Qed.

(* between operations no batch is pending in the log *)
Definition LogInv (d : db) (m : smap) : Prop := LogOK d m /\ snd (sreplay [] [] (log d)) = [].

Lemma LogInv_Inv d m : LogInv d m -> Inv d. Proof. intros H. exact (proj1 (proj1 H)). Qed.
Lemma LogInv_InvF d m : LogInv d m -> InvF d. Proof. intros H. exact (proj1 (LogInv_Inv d m H)). Qed.
Lemma LogInv_InvO d m : LogInv d m -> InvO d. Proof. intros [(_ & H & _) _]. exact H. Qed.
Lemma LogInv_InvP d m : LogInv d m -> InvP d. Proof. intros [(_ & _ & H & _) _]. exact H. Qed.
Lemma LogInv_R d m : LogInv d m -> R d m. Proof. intros [(_ & _ & _ & H & _) _]. exact H. Qed.
Lemma LogInv_sreplay d m : LogInv d m -> sreplay [] [] (log d) = (m, []).
Proof. intros [(_ & _ & _ & _ & Hm) Ht]. destruct (sreplay [] [] (log d)) as [a b]. cbn [fst snd] in *. subst. reflexivity. Qed.
Lemma LogInv_intro d m : Inv d -> InvO d -> InvP d -> R d m -> sreplay [] [] (log d) = (m, []) -> LogInv d m.
Proof. intros HI HO HP HR Hs. unfold LogInv, LogOK. rewrite Hs. auto 10. Qed.

Lemma LogInv_touched {io} d d' m : LogInv d m -> touched_by io d d' -> LogInv d' m.
Proof.
  intros HL Ht. destruct (log_touched d d' (LogInv_InvO d m HL) Ht) as [Hl HO'].
  apply LogInv_intro; [exact (Inv_touched _ _ Ht (LogInv_Inv d m HL))|exact HO'|exact (InvP_touched _ _ Ht (LogInv_InvP d m HL))
                      |exact (R_touched _ _ _ Ht (LogInv_R d m HL))|].
  rewrite Hl. exact (LogInv_sreplay d m HL).
Qed.

Lemma sreplay_snoc_plain l m t r : sreplay [] [] l = (m, t) -> r_batch r = 0 ->
  sreplay [] [] (l ++ [r]) = (rec_apply m r, t).
Proof. intros H Hb. rewrite sreplay_app, H. cbn [fst snd sreplay]. rewrite Hb. reflexivity. Qed.

Lemma append_index_log d m r d1 p evs :
  LogInv d m -> r_batch r = 0 -> db_append d r = (d1, p, evs) ->
  LogInv (idx_upd d1 r p) (rec_apply m r) /\ log (idx_upd d1 r p) = log d ++ [r].
Proof.
  intros HL Hb Happ. pose proof (LogInv_Inv d m HL) as HI.
  destruct (append_index_spec _ _ _ _ _ _ HI (LogInv_R d m HL) Happ) as (HI' & HR').
  destruct (db_append_log _ _ _ _ _ (proj1 HI) (LogInv_InvO d m HL) (LogInv_InvP d m HL) Happ) as (Hlog1 & _ & HO1 & HP1 & _).
  destruct (log_index_only _ _ (idx_upd_index_only d1 r p)) as (Hl & HOi & HPi). rewrite Hl, Hlog1.
  split; [|reflexivity]. apply LogInv_intro; auto.
  rewrite Hl, Hlog1. exact (sreplay_snoc_plain _ _ _ _ (LogInv_sreplay d m HL) Hb).
Qed.

Theorem db_put_log d m k v d' e evs :
  LogInv d m -> db_put d k v = (d', e, evs) -> LogInv d' (fst (s_put m k v)) /\ e = snd (s_put m k v).
Proof.
  intros HL Hput. unfold s_put.
  destruct (db_put_cases _ _ _ _ _ _ Hput) as [(-> & -> & -> & _)|(-> & -> & d1 & p & Happ & ->)]; [auto|].
  split; [|reflexivity]. exact (proj1 (append_index_log d m (mkRec rt_Normal k v 0) _ _ _ HL eq_refl Happ)).
Qed.

Theorem db_delete_log d m k d' e evs :
  LogInv d m -> db_delete d k = (d', e, evs) -> LogInv d' (fst (s_del m k)) /\ e = snd (s_del m k).
Proof.
  intros HL Hdel. pose proof (LogInv_R d m HL) as HR.
  destruct (db_delete_spec _ _ _ _ _ _ (LogInv_Inv d m HL) HR Hdel) as (_ & He & _). split; [|exact He].
  unfold s_del. pose proof (R_get d m k HR) as Hg.
  destruct (db_delete_cases _ _ _ _ _ Hdel) as [(-> & -> & _)|[(-> & Eg & -> & _)|(-> & _ & d1 & p & Happ & -> & _)]]; cbn [fst].
  - exact HL.
  - rewrite Eg in Hg. rewrite (amap_del_absent m k Hg). exact HL.
  - exact (proj1 (append_index_log d m (mkRec rt_Deleted k [] 0) _ _ _ HL eq_refl Happ)).
Qed.

(* ---- batches and the log ---------------------------------------------------------------------------- *)
(* in the middle of the batch id: L0 is the log and m0 the map at NewBatch, fl the records flushed so far.  The log is
   L0 followed by fl, tagged; the index already points at the flushed records; records are flushed only to make room
   for the next one, so something is staged once anything was flushed; flushed and staged records are never seals *)
Definition BL (id : N) (d : db) (b : batch) (m0 : smap) (L0 fl : list record) : Prop :=
  InvO d /\ InvP d /\ b_id b = id /\ log d = L0 ++ map (tag id) fl /\ R d (s_apply_recs m0 fl) /\
  (fl = [] \/ b_staged b <> []) /\ Forall ok_type fl /\ Forall ok_type (b_staged b).

Lemma BL_start d m sync id : LogInv d m -> BL id d (new_batch sync id) m (log d) [].
Proof.
  intros HL. split; [exact (LogInv_InvO d m HL)|]. split; [exact (LogInv_InvP d m HL)|]. split; [reflexivity|].
  split; [cbn [map]; rewrite app_nil_r; reflexivity|]. split; [exact (LogInv_R d m HL)|]. split; [left; reflexivity|]. split; constructor.
Qed.

Lemma BL_restaged id d b b' m0 L0 fl :
  BL id d b m0 L0 fl -> b_id b' = b_id b -> b_staged b' <> [] -> Forall ok_type (b_staged b') -> BL id d b' m0 L0 fl.
Proof. intros (HO & HP & Hid & Hlog & HR & _ & Htf & _) E Hne Hty. unfold BL. rewrite E. auto 10. Qed.
Lemma BL_touched id d d' b m0 L0 fl : touched d d' -> BL id d b m0 L0 fl -> BL id d' b m0 L0 fl.
Proof.
  intros Ht (HO & HP & Hid & Hlog & HR & Hrest). destruct (log_touched d d' HO Ht) as [Hl HO'].
  split; [exact HO'|]. split; [exact (InvP_touched d d' Ht HP)|]. split; [exact Hid|]. rewrite Hl. split; [exact Hlog|].
  split; [exact (R_touched d d' _ Ht HR)|exact Hrest].
Qed.

Lemma staged_update_ok st k f : Forall ok_type st -> (forall r, ok_type (f r)) -> Forall ok_type (staged_update st k f).
Proof. intros H Hf. induction st as [|r st IH]; cbn [staged_update]; [constructor|].
  pose proof (Forall_inv H). pose proof (Forall_inv_tail H).
  destruct (bytes_eqb (r_key r) k); constructor; auto. Qed.
Lemma staged_update_nonempty st k f r : staged_find st k = Some r -> staged_update st k f <> [].
Proof. destruct st as [|r0 st]; cbn [staged_find staged_update]; [discriminate|].
  intros _. destruct (bytes_eqb (r_key r0) k); discriminate. Qed.

Lemma BL_flush_stage id d b m0 L0 fl d1 b1 ev1 r c :
  Inv d -> BL id d b m0 L0 fl -> batch_flush_rotate d b = (d1, b1, ev1) -> ok_type r ->
  BL id d1 (mkBatch [r] c (b_committed b1) (b_sync b) (b_id b)) m0 L0 (fl ++ b_staged b).
Proof.
  intros HI (HO & HP & Hid & Hlog & HR & Hne & Htf & Hty) Hfl Hr.
  destruct (batch_flush_rotate_spec _ _ _ _ _ _ HI HR Hfl) as (HI1 & HR1).
  destruct (batch_flush_rotate_log _ _ _ _ _ (proj1 HI) HO HP Hfl) as (L1 & _ & O1 & P1).
  split; [exact O1|]. split; [exact P1|]. split; [exact Hid|].
  split; [rewrite L1, Hlog, Hid, map_app, app_assoc; reflexivity|].
  split; [rewrite s_apply_recs_app; exact HR1|]. split; [right; discriminate|].
  split; [apply Forall_app; auto|constructor; [exact Hr|constructor]].
Qed.

Lemma staged_as_BL id d b m0 L0 fl new Q d' b' evs :
  Inv d -> BL id d b m0 L0 fl -> ok_type new -> staged_as d b new Q d' b' evs -> exists fl', BL id d' b' m0 L0 fl'.
Proof.
  intros HI HB Hr Hs. pose proof HB as (_ & _ & _ & _ & _ & _ & _ & Hty).
  destruct Hs as [(Hfl & ->)|(-> & _ & [(Ef & _ & ->)|(r & c & Ef & _ & ->)])].
  - exists (fl ++ b_staged b). exact (BL_flush_stage id d b m0 L0 fl _ _ _ new _ HI HB Hfl Hr).
  - exists fl. apply (BL_restaged id d b); [exact HB|reflexivity|destruct (b_staged b); discriminate|].
    apply Forall_app. split; [exact Hty|]. constructor; [exact Hr|constructor].
  - exists fl. apply (BL_restaged id d b); [exact HB|reflexivity|exact (staged_update_nonempty _ _ _ _ Ef)|].
    apply staged_update_ok; [exact Hty|]. intros r0. exact Hr.
Qed.

Lemma run_bops_BL id m0 L0 : forall bops d b d' b' rs evs,
  Inv d -> (exists mc, BRel d b mc) -> (exists fl, BL id d b m0 L0 fl) -> run_bops d b bops = (d', b', rs, evs) ->
  exists fl', BL id d' b' m0 L0 fl'.
Proof.
  intros bops d b d' b' rs evs HI HB HL Hrun.
  assert (H : Inv d' /\ (exists mc', BRel d' b' mc') /\ exists fl', BL id d' b' m0 L0 fl'); [|exact (proj2 (proj2 H))].
  apply (run_bops_ind (fun d1 b1 => Inv d1 /\ (exists mc', BRel d1 b1 mc') /\ exists fl', BL id d1 b1 m0 L0 fl')) with (5 := Hrun);
    [| | |auto].
  - intros d1 b1 k v d2 b2 e ev (HI1 & [mc1 HB1] & fl1 & HL1) Hp.
    destruct (batch_put_spec _ _ _ _ _ _ _ _ _ HI1 HB1 Hp) as (HI2 & _ & HB2). split; [exact HI2|]. split; [eauto|].
    destruct (batch_put_cases _ _ _ _ _ _ _ _ Hp) as [(-> & -> & _)|(_ & _ & _ & Hs)];
      [eauto|exact (staged_as_BL id _ _ _ _ _ (mkRec rt_Normal k v 0) _ _ _ _ HI1 HL1 eq_refl Hs)].
  - intros d1 b1 k d2 b2 e ev (HI1 & [mc1 HB1] & fl1 & HL1) Hp.
    destruct (batch_delete_spec _ _ _ _ _ _ _ _ HI1 HB1 Hp) as (HI2 & _ & HB2). split; [exact HI2|]. split; [eauto|].
    destruct (batch_delete_cases _ _ _ _ _ _ _ Hp) as [(-> & -> & _)|(_ & _ & _ & Hs)];
      [eauto|exact (staged_as_BL id _ _ _ _ _ (mkRec rt_Deleted k [] 0) _ _ _ _ HI1 HL1 eq_refl Hs)].
  - intros d1 b1 k d2 r ev (HI1 & [mc1 HB1] & fl1 & HL1) Hg.
    pose proof (batch_get_touched _ _ _ _ _ _ Hg) as Ht.
    split; [exact (Inv_touched _ _ Ht HI1)|]. split; [|exists fl1; exact (BL_touched _ _ _ _ _ _ _ Ht HL1)].
    destruct HB1 as (md & HR & Hrest). exists mc1, md. split; [exact (R_touched _ _ _ Ht HR)|exact Hrest].
Qed.

Lemma R_unique d m1 m2 : R d m1 -> R d m2 -> m1 = m2.
Proof.
  unfold R. generalize (d_index d) as ix. intros ix H1. revert m2.
  induction H1 as [|[k p] [k1 v1] ix m1 [Hk1 Hv1] _ IH]; intros m2 H2; inversion H2 as [|x [k2 v2] ix' m2' [Hk2 Hv2] Hrest]; subst.
  - reflexivity.
  - cbn [fst snd] in *. subst. rewrite Hv1 in Hv2. injection Hv2 as ->. f_equal. apply IH. exact Hrest.
Qed.

Lemma BRel_BL_mcur id d b mcur m0 L0 fl : Inv d -> BRel d b mcur -> BL id d b m0 L0 fl -> mcur = s_apply_recs m0 (fl ++ b_staged b).
Proof.
  intros HI (md & HRmd & Hs & Hnd & Hv & _) (_ & _ & _ & _ & HR & _).
  rewrite s_apply_recs_app, <- (R_unique d _ _ HRmd HR). symmetry. exact (BRel_flush d b mcur md HI HRmd Hs Hnd Hv).
Qed.

Lemma batch_commit_struct id d b mcur m0 L0 fl d' b' e evs :
  Inv d -> BRel d b mcur -> BL id d b m0 L0 fl -> batch_commit d b = (d', b', e, evs) ->
  InvO d' /\ InvP d' /\ Forall ok_type (fl ++ b_staged b) /\
  ((fl ++ b_staged b = [] /\ log d' = L0) \/
   log d' = L0 ++ map (tag id) (fl ++ b_staged b) ++ [seal id]).
Proof.
  intros HI HB (HO & HP & <- & Hlog & HR & Hne & Htf & Hty) Hc.
  assert (Hnc : b_committed b = false) by (destruct HB as (md & _ & _ & _ & _ & H); exact H).
  destruct (batch_commit_cases _ _ _ _ _ _ Hc) as [(Hc' & _)|(_ & _ & _ & [(Est & -> & _)|(_ & d1 & b1 & ev1 & a & p & ev2 & Hfl & Hla & ->)])];
    [congruence| |].
  - destruct Hne as [->|Hne]; [|contradiction]. rewrite Est. cbn [app map] in *. rewrite app_nil_r in Hlog. auto 10.
  - destruct (batch_flush_log _ _ _ _ _ (proj1 HI) HO HP Hfl) as (L1 & F1 & O1 & P1 & _). cbn [b_staged b_id] in L1.
    destruct (active_append_log d1 (seal (b_id b)) a p ev2 (b_sync b) F1 O1 P1 Hla) as (L2 & _ & O2 & P2 & _).
    split; [exact O2|]. split; [exact P2|]. split; [apply Forall_app; auto|]. right.
    rewrite L2, L1, Hlog, map_app, <- !app_assoc. reflexivity.
Qed.

Lemma batch_commit_log id d b mcur m0 L0 fl d' b' e evs :
  sreplay [] [] L0 = (m0, []) -> id <> 0 ->
  Inv d -> BRel d b mcur -> BL id d b m0 L0 fl -> batch_commit d b = (d', b', e, evs) -> LogInv d' mcur.
Proof.
  intros H0 Hid HI HB HL Hc.
  destruct (batch_commit_view _ _ _ _ _ _ _ HI HB Hc) as (HI' & HR' & _).
  destruct (batch_commit_struct _ _ _ _ _ _ _ _ _ _ _ HI HB HL Hc) as (HO' & HP' & Hty & Hl).
  apply LogInv_intro; try assumption. rewrite (BRel_BL_mcur id d b mcur m0 L0 fl HI HB HL).
  destruct Hl as [[-> ->] | ->]; [exact H0|].
  pose proof (sreplay_tagged id Hid _ [] m0 Hty) as Ht. cbn [pend app] in Ht.
  rewrite sreplay_app, H0. cbn [fst snd]. rewrite sreplay_app, Ht. cbn [fst snd].
  apply sreplay_seal. exact Hid.
Qed.

Lemma db_rotate_LogInv d m d' ev : LogInv d m -> db_rotate d = (d', ev) -> LogInv d' m.
Proof. intros [HL Ht] Hrot. destruct (db_rotate_LogOK _ _ _ _ HL Hrot) as (A & B & _). split; [exact A|rewrite B; exact Ht]. Qed.
Lemma db_sync_log d m d' evs : LogInv d m -> db_sync d = (d', evs) -> LogInv d' m.
Proof.
  intros HL Hs. destruct (db_sync_spec _ _ _ _ (LogInv_Inv d m HL) (LogInv_R d m HL) Hs) as (HI' & HR').
  rewrite db_sync_eq in Hs. injection Hs as <- _.
  exact (LogInv_intro _ m HI' (LogInv_InvO d m HL) (LogInv_InvP d m HL) HR' (LogInv_sreplay d m HL)).
Qed.

Theorem db_merge_log d k m order d' k' e evs :
  LogInv d m -> db_merge d k order = (d', k', e, evs) -> LogInv d' m.
Proof.
  intros HL Hm. destruct (db_merge_shape _ _ _ _ _ _ _ Hm) as (d1 & ev1 & d2 & res & ev5 & Hrot & Hmf & _ & Hres).
  pose proof (LogInv_touched _ _ _ (db_rotate_LogInv _ _ _ _ HL Hrot) (merge_files_touched_by _ _ _ _ _ _ _ _ Hmf)) as HL2.
  destruct res as [ms|er ms]; [destruct Hres as ([evS Hsy] & _); exact (db_sync_log _ _ _ _ HL2 Hsy)|].
  destruct Hres as (-> & _). exact HL2.
Qed.

Lemma ids_below_asc_app o id f : ids_below o id -> asc (o ++ [(id, f)]).
Proof.
  induction o as [|[i g] o IH]; cbn [app asc ids_below]; [auto|]. rewrite ids_above_app. intros (H1 & H2 & H3). auto.
Qed.

Lemma db_files_ok d : InvF d -> InvO d -> InvP d ->
  db_files d = d_older d ++ [(d_active_id d, d_active d)] /\
  forall id f, In (id, f) (db_files d) -> wf_lfile f /\ pos_ok id f.
Proof.
  intros [Hact Hold] HO [Hpa Hpo]. pose proof (older_set_append _ _ (d_active d) HO) as E. split; [exact E|].
  unfold db_files. rewrite E. intros id f Hin. apply in_app_or in Hin. destruct Hin as [Hin|[[= <- <-]|[]]]; [|auto].
  pose proof (asc_get_in _ _ _ (ids_below_asc _ _ HO) Hin) as Hg. split; [exact (proj1 (Hold _ _ Hg))|exact (Hpo _ _ Hg)].
Qed.

Theorem db_close_spec d k m k' evs :
  LogInv d m -> k_merge k = None -> db_close d k = (k', evs) ->
  disk_ok k' /\ files_log (k_data k') = log d.
Proof.
  intros HL Hnm Hc. pose proof (db_close_fst d k) as H. rewrite Hc in H. cbn [fst] in H. subst k'. cbn [k_data k_merge].
  pose proof (LogInv_InvO d m HL) as HO.
  destruct (db_files_ok d (LogInv_InvF d m HL) HO (LogInv_InvP d m HL)) as [E Hall].
  split; [split; [exact Hnm|split]|].
  - apply (asc_ids _ (db_files d)); [apply map_files_ids|]. rewrite E. apply ids_below_asc_app. exact HO.
  - apply Forall_forall. intros [id f'] Hin. apply in_map_files in Hin. destruct Hin as (f & Hin & ->).
    destruct (Hall id f Hin) as [Hwf Hpo]. split; [exact (wf_lfile_same f (closed f) eq_refl eq_refl Hwf)|]. split; [|reflexivity].
    exact (pos_ok_same id f (closed f) eq_refl Hpo).
  - rewrite files_log_map_files by reflexivity. symmetry. exact (log_db_files d HO).
Qed.

(* ---- the operations of a script without merges -------------------------------------------------------- *)
(* batch id 0 is the tag of a record outside any batch *)
Definition op_ok (o : op) : Prop :=
  match o with OpMerge _ => False | OpBatch _ id _ => id <> 0 | _ => True end.

Lemma batch_step_log d m sync id bops d1 b1 rs ev1 d2 b2 e ev2 :
  LogInv d m -> id <> 0 ->
  run_bops d (new_batch sync id) bops = (d1, b1, rs, ev1) -> batch_commit d1 b1 = (d2, b2, e, ev2) ->
  LogInv d2 (fst (s_bops m bops)) /\ rs = snd (s_bops m bops) /\ e = None /\
  ((log d2 = log d /\ fst (s_bops m bops) = m) \/
   exists st, Forall ok_type st /\ log d2 = log d ++ map (tag id) st ++ [seal id] /\
              fst (s_bops m bops) = s_apply_recs m st).
Proof.
  intros HL Hid Hr Hc. pose proof (LogInv_Inv d m HL) as HI.
  pose proof (BRel_start d m sync id HI (LogInv_R d m HL)) as HB0.
  destruct (run_bops_spec _ _ _ _ _ _ _ _ HI HB0 Hr) as (HI1 & HB1 & Hrs).
  destruct (run_bops_BL id m (log d) _ _ _ _ _ _ _ HI (ex_intro _ m HB0) (ex_intro _ [] (BL_start d m sync id HL)) Hr) as (fl1 & HL1).
  destruct (batch_commit_view _ _ _ _ _ _ _ HI1 HB1 Hc) as (_ & _ & ->).
  split; [exact (batch_commit_log _ _ _ _ _ _ _ _ _ _ _ (LogInv_sreplay d m HL) Hid HI1 HB1 HL1 Hc)|]. split; [exact Hrs|].
  split; [reflexivity|]. rewrite (BRel_BL_mcur id d1 b1 _ m _ fl1 HI1 HB1 HL1).
  destruct (batch_commit_struct _ _ _ _ _ _ _ _ _ _ _ HI1 HB1 HL1 Hc) as (_ & _ & Hty & [[-> Hlog]|Hlog]); [auto|eauto].
Qed.

Lemma step_log_live d k m o d' k' r evs :
  LogInv d m -> op_ok o -> no_restart o -> step (d, k) o = ((d', k'), r, evs) ->
  LogInv d' (fst (sstep m o)) /\ k' = k /\ proj r = proj (snd (sstep m o)).
Proof.
  intros HL Hok Hnr Hst. pose proof (LogInv_Inv d m HL) as HI. pose proof (LogInv_R d m HL) as HR.
  apply step_cases in Hst. destruct o as [key v|key|key| | | | |sync id bops|order|c]; cbn [sstep]; try contradiction.
  - (* Put *)
    destruct Hst as (-> & e & Hp & ->). destruct (db_put_log _ _ _ _ _ _ _ HL Hp) as [HL1 ->].
    destruct (s_put m key v). auto.
  - (* Get *)
    destruct Hst as (-> & v & Hg & ->). destruct (db_get_spec d m key HI HR) as (d1 & ev1 & Hg' & _).
    rewrite Hg in Hg'. injection Hg' as _ -> _. cbn [fst snd].
    split; [exact (LogInv_touched _ _ _ HL (db_get_touched _ _ _ _ _ Hg))|auto].
  - (* Delete *)
    destruct Hst as (-> & e & Hp & ->). destruct (db_delete_log _ _ _ _ _ _ HL Hp) as [HL1 ->].
    destruct (s_del m key). auto.
  - (* ListKeys *)
    destruct Hst as (-> & -> & ->). cbn [fst snd]. rewrite (db_list_keys_spec d m HR). auto.
  - (* Fold *)
    destruct Hst as (-> & x & Hf & ->). destruct (db_fold_spec d m HI HR) as (d1 & ev1 & Hf' & _).
    rewrite Hf in Hf'. injection Hf' as _ -> _. cbn [fst snd].
    split; [exact (LogInv_touched _ _ _ HL (db_fold_aux_touched _ _ _ _ _ Hf))|auto].
  - (* Stat *)
    destruct Hst as (-> & -> & ->). cbn [fst snd proj]. rewrite (db_keynum_spec d m HR). auto.
  - (* Sync *)
    destruct Hst as (-> & Hs & ->). cbn [fst snd]. split; [exact (db_sync_log _ _ _ _ HL Hs)|auto].
  - (* a batch *)
    destruct Hst as (-> & d1 & b1 & rs & ev1 & b2 & e & ev2 & Hr & Hc & ->).
    destruct (batch_step_log _ _ _ _ _ _ _ _ _ _ _ _ _ HL Hok Hr Hc) as (HL2 & -> & -> & _).
    destruct (s_bops m bops). auto.
Qed.

Lemma open_empty_log c d k evs : db_open c empty_disk = (OpenOk d k, evs) -> LogInv d [] /\ k_merge k = None.
Proof.
  rewrite db_open_empty. intros [= <- <- _]. destruct (fresh_db_LogOK c) as [HL Hlog].
  split; [split; [exact HL|rewrite Hlog; reflexivity]|reflexivity].
Qed.
