(* EngineLimit.v — data files respect the size limit (C17, last clause): at every step of every history
   of Put / Delete / Get / ListKeys / Fold / Stat / Sync / Merge and batches, and across restarts that do not
   lower the limit, every data file - the files a Merge rewrites included - either is no longer than
   DataFileSize or holds a single record (plus, for a batch, its sealing record).
   The size estimate GetLogRecordDiskSize covers what writeToBuf appends - block-tail padding, chunk
   headers, encoded record - for keys and values of up to 128 MiB together (the bound is explicit: the
   estimate counts one header per 32768 bytes, the writer needs one per 32761). *)
From Coq Require Import ZArith Lia ZifyN ZifyNat ZifyBool.
From KV Require Import Bytes GenConsts Chunk Record Engine Script BytesLemmas ChunkProofs FramingProofs
  FileProofs EngineFiles EngineOps EngineBatch EngineRefine EngineMerge.
Open Scope N_scope.

Definition kv_max : N := 134217728.

(* ---- the estimate covers the growth ---- *)
Lemma estimate_val k v : disk_size_estimate k v = k + v + 39 + ((k + v + 32) / 32768 + 1) * 7.
Proof.
  unfold disk_size_estimate. rewrite chunkHeaderSize_val, blockSize_val.
  change maxLogRecordHeaderSize with 21. change maxVarintLen64 with 10.
  replace (21 + k + v + 10 + 1) with (k + v + 32) by lia. lia.
Qed.

(* What writeToBuf adds for n encoded bytes: [pad] bytes up to the block boundary (only when fewer than 7
   bytes are left in the block, so that a whole block follows), a 7-byte header per chunk, the n bytes.
   Beyond the n <= kv + 21 bytes themselves the writer needs pad + 7 * (1 + ceil ((n - room) / 32761)) bytes and
   the estimate counts 25 + 7 * ((kv + 32) / 32768).  The writer's divisor is the smaller one, so what it needs
   overtakes what is counted as kv grows: the statement holds because kv is bounded. *)
Lemma growth_arith pad room n kv :
  pad <= 7 -> 1 <= room -> room <= 32761 -> pad = 0 \/ room = 32761 -> 0 < n -> n <= kv + 21 -> kv <= kv_max ->
  pad + nchunks room n * 7 + n <= kv + 39 + ((kv + 32) / 32768 + 1) * 7.
Proof.
  unfold kv_max, nchunks. intros Hp H1 H2 Hc Hn Hle Hkv. rewrite blockSize_val, chunkHeaderSize_val.
  destruct (n =? 0) eqn:E0; [lia|]. destruct (n <=? room) eqn:E; [lia|]. apply N.leb_gt in E. destruct Hc; lia.
Qed.

Lemma frame_end_bound fid bid bsz n k v p b' s' :
  bsz < blockSize -> 0 < n -> n <= k + v + 21 -> k + v <= kv_max -> frame fid bid bsz n = (p, b', s') ->
  b' * blockSize + s' <= bid * blockSize + bsz + disk_size_estimate k v.
Proof.
  intros Hb Hn Hle Hkv Hfr. destruct (frame_spec _ _ _ _ _ _ _ Hb Hfr) as (-> & _ & ->). cbn [p_size].
  destruct (norm_spec bid bsz Hb) as [Ho E]. set (b0 := fst (norm bid bsz)) in *. set (o := snd (norm bid bsz)) in *.
  pose proof (growth_arith (pad_len bsz) (32768 - o - 7) n (k + v)) as G.
  (* the padding is 0 and the record starts where the file ends, or it fills the block and the record starts at offset 0 *)
  unfold pad_len in *. rewrite estimate_val. rewrite blockSize_val, chunkHeaderSize_val in *.
  destruct ((32768 <=? bsz + 7) && negb (bsz =? 32768)) eqn:Ep;
    (specialize (G ltac:(lia) ltac:(lia) ltac:(lia) ltac:(lia) Hn Hle Hkv); lia).
Qed.

Lemma div_lt_pow b m x : 1 < b -> x < b ^ N.of_nat (S (S m)) -> x / b < b ^ N.of_nat (S m).
Proof.
  intros Hb Hx. replace (N.of_nat (S (S m))) with (N.succ (N.of_nat (S m))) in Hx by lia.
  rewrite N.pow_succ_r' in Hx. apply N.div_lt_upper_bound; lia.
Qed.

Lemma uv_fuel_len_fuel : forall f x, len (put_uvarint_fuel f x) <= N.of_nat f.
Proof.
  induction f as [|f IH]; intros x; cbn [put_uvarint_fuel]; [rewrite len_nil; lia|].
  destruct (x <? 128); rewrite len_cons; [rewrite len_nil; lia|]. specialize (IH (x / 128)). lia.
Qed.
Lemma uv_fuel_len_le : forall m f x, x < 128 ^ N.of_nat (S m) -> len (put_uvarint_fuel f x) <= N.of_nat (S m).
Proof.
  induction m as [|m IH]; intros f x Hx; destruct f as [|f]; cbn [put_uvarint_fuel]; try (rewrite len_nil; lia).
  - change (128 ^ N.of_nat 1) with 128 in Hx. destruct (x <? 128) eqn:E; [rewrite len_cons, len_nil; lia|apply N.ltb_ge in E; lia].
  - destruct (x <? 128) eqn:E; rewrite len_cons; [rewrite len_nil; lia|].
    specialize (IH f (x / 128) (div_lt_pow 128 m x ltac:(lia) Hx)). lia.
Qed.
Lemma uvarint_len_le_5 x : x < 34359738368 -> uvarint_len x <= 5.
Proof. exact (uv_fuel_len_le 4 10 x). Qed.

Definition rec_small (r : record) : Prop := len (r_key r) + len (r_value r) <= kv_max /\ r_batch r < 18446744073709551616.

Lemma rec_len_bound r : rec_small r -> rec_len r <= len (r_key r) + len (r_value r) + 21.
Proof.
  unfold rec_small, kv_max. intros [Hkv _]. unfold rec_len, encoded_len.
  pose proof (uvarint_len_le_5 (2 * len (r_key r)) ltac:(lia)). pose proof (uvarint_len_le_5 (2 * len (r_value r)) ltac:(lia)).
  pose proof (uv_fuel_len_fuel 10 (r_batch r) : uvarint_len (r_batch r) <= 10). lia.
Qed.

Definition rec_est (r : record) : N := disk_size_estimate (len (r_key r)) (len (r_value r)).
Fixpoint sum_est (rs : list record) : N := match rs with [] => 0 | r :: rest => rec_est r + sum_est rest end.

Lemma frame_all_bound fid : forall rs bid bsz out b' s',
  bsz < blockSize -> Forall rec_small rs -> frame_all fid bid bsz rs = (out, b', s') ->
  bid * blockSize + bsz <= b' * blockSize + s' /\ b' * blockSize + s' <= bid * blockSize + bsz + sum_est rs /\
  (rs <> [] -> 0 < b' * blockSize + s').
Proof.
  induction rs as [|r rs IH]; intros bid bsz out b' s' Hb Hs Hfa; cbn [frame_all] in Hfa.
  - injection Hfa as _ <- <-. cbn [sum_est]. split; [lia|]. split; [lia|]. intros H; congruence.
  - destruct (frame fid bid bsz (rec_len r)) as [[p b1] s1] eqn:Hfr.
    destruct (frame_all fid b1 s1 rs) as [[out1 b2] s2] eqn:Hfa1. injection Hfa as _ <- <-.
    pose proof (Forall_inv Hs) as Hr.
    pose proof (frame_end_bound _ _ _ _ _ _ _ _ _ Hb (rec_len_pos r) (rec_len_bound r Hr) (proj1 Hr) Hfr) as B.
    destruct (frame_props _ _ _ _ _ _ _ Hb (rec_len_pos r) Hfr) as (_ & _ & P1 & P2 & P3 & Hs1).
    destruct (IH b1 s1 out1 b2 s2 Hs1 (Forall_inv_tail Hs) Hfa1) as (C & D & _).
    cbn [sum_est]. fold (rec_est r) in B. lia.
Qed.

Lemma lf_append_all_growth io nm fid f rs f' ps evs :
  Forall rec_small rs -> lf_append_all io nm fid f rs = (f', ps, evs) ->
  lf_size f <= lf_size f' /\ lf_size f' <= lf_size f + sum_est rs /\ (rs <> [] -> 0 < lf_size f').
Proof.
  intros Hs Happ. unfold lf_append_all in Happ.
  destruct (frame_all fid (lf_bid f) (lf_bsz f) rs) as [[out b'] s'] eqn:Hfa.
  destruct (h_write_fields io nm f out (b' * blockSize + s' - lf_size f)) as (_ & Hsize & _).
  destruct (h_write io nm f out _) as [f1 ev1]. cbn [fst] in *. injection Happ as <- _ _.
  destruct (lf_pos_eq f) as [Hcur Hbsz].
  destruct (frame_all_bound fid rs _ _ _ _ _ Hbsz Hs Hfa) as (A & B & P).
  rewrite Hsize. split; [lia|]. split; [lia|]. intros Hne. specialize (P Hne). lia.
Qed.

Lemma lf_append_growth io nm fid f r f' p evs :
  rec_small r -> lf_append io nm fid f r = (f', p, evs) ->
  lf_size f <= lf_size f' /\ lf_size f' <= lf_size f + rec_est r /\ 0 < lf_size f'.
Proof.
  intros Hs Happ. pose proof (lf_append_single io nm fid f r) as H1. rewrite Happ in H1.
  destruct (lf_append_all_growth _ _ _ _ _ _ _ _ (Forall_cons r Hs (Forall_nil _)) H1) as (A & B & C).
  cbn [sum_est] in B. split; [exact A|]. split; [lia|apply C; discriminate].
Qed.

(* ---- the limit ---- *)
Definition single (f : lfile) : Prop :=
  match lf_recs f with
  | [_] => True
  | [_; (s, _)] => r_type s = rt_BatchFinished
  | _ => False
  end.
Definition RSfile (f : lfile) : Prop := Forall (fun rp => rec_small (fst rp)) (lf_recs f).
(* FL fs f, "f respects the file limit fs": positive size if it holds records, small records (RSfile), and
   no longer than fs or a single record (with, for a batch, its sealing record: single) *)
Definition FL (fs : N) (f : lfile) : Prop :=
  (lf_recs f = [] \/ 0 < lf_size f) /\ RSfile f /\ (lf_size f <= fs \/ single f).

Lemma FL_same fs f g : lf_recs g = lf_recs f -> lf_size g = lf_size f -> FL fs f -> FL fs g.
Proof. unfold FL, single, RSfile. intros -> ->. auto. Qed.
Lemma FL_mono fs fs' f : fs <= fs' -> FL fs f -> FL fs' f.
Proof. intros H (Z & R & L). split; [exact Z|split; [exact R|]]. destruct L as [L|S]; [left; lia|right; exact S]. Qed.
Lemma FL_new fs f : lf_recs f = [] -> lf_size f = 0 -> FL fs f.
Proof. intros Hr Hs. split; [left; exact Hr|]. split; [unfold RSfile; rewrite Hr; constructor|left; lia]. Qed.

Lemma FL_empty fs f : FL fs f -> lf_size f = 0 -> lf_recs f = [].
Proof. intros ([H|H] & _) Hz; [exact H|lia]. Qed.

Lemma FL_grow fs f f' out :
  FL fs f -> lf_recs f' = lf_recs f ++ out -> Forall (fun rp => rec_small (fst rp)) out ->
  lf_size f <= lf_size f' -> (out <> [] -> 0 < lf_size f') -> lf_size f' <= fs \/ single f' -> FL fs f'.
Proof.
  intros (Hz & Hrs & _) Hrecs Hsm Hle Hpos Hlim. split; [|split; [|exact Hlim]].
  - destruct out as [|x out]; [|right; apply Hpos; discriminate].
    rewrite app_nil_r in Hrecs. destruct Hz as [Hz|Hz]; [left; congruence|right; lia].
  - unfold RSfile. rewrite Hrecs. apply Forall_app. split; [exact Hrs|exact Hsm].
Qed.

Lemma combine_small rs (ps : list pos) : Forall rec_small rs -> Forall (fun rp => rec_small (fst rp)) (combine rs ps).
Proof. intros H. apply Forall_forall. intros [r p] Hin. exact (proj1 (Forall_forall _ _) H r (in_combine_l _ _ _ _ Hin)). Qed.

Lemma FL_append_all fs extra io nm fid f rs f' ps evs :
  FL fs f -> Forall rec_small rs -> lf_size f + sum_est rs + extra <= fs \/ (lf_size f = 0 /\ (length rs <= 1)%nat) ->
  lf_append_all io nm fid f rs = (f', ps, evs) ->
  FL fs f' /\ (rs <> [] -> lf_size f' + extra <= fs \/ exists x, lf_recs f' = [x]).
Proof.
  intros HF Hs Hcase Happ. destruct (lf_append_all_growth _ _ _ _ _ _ _ _ Hs Happ) as (G1 & G2 & Gp).
  destruct (lf_append_all_fields _ _ _ _ _ _ _ _ Happ) as (G3 & G4 & _).
  assert (H : lf_size f' + extra <= fs \/ (rs = [] /\ lf_size f' = 0) \/ exists x, lf_recs f' = [x]).
  { destruct Hcase as [Hfit|[Hz Hone]]; [left; lia|right]. rewrite G3, (FL_empty _ _ HF Hz). cbn [app].
    destruct rs as [|r [|r' rs]]; [left; cbn [sum_est] in G2; split; [reflexivity|lia]| |cbn in Hone; lia].
    destruct ps as [|p [|p' ps]]; try discriminate. right. exists (r, p). reflexivity. }
  split.
  - apply (FL_grow fs f f' (combine rs ps) HF G3 (combine_small rs ps Hs) G1).
    + intros Hne. apply Gp. intros ->. apply Hne. reflexivity.
    + destruct H as [H|[[_ H]|[x H]]]; [left; lia|left; lia|right; unfold single; rewrite H; exact I].
  - intros Hne. destruct H as [H|[[H _]|H]]; [left; exact H|contradiction|right; exact H].
Qed.

Lemma FL_append_fit fs io nm fid f r f' p evs :
  FL fs f -> rec_small r -> lf_size f + rec_est r <= fs \/ lf_size f = 0 ->
  lf_append io nm fid f r = (f', p, evs) -> FL fs f'.
Proof.
  intros HF Hs Hcase Happ. pose proof (lf_append_single io nm fid f r) as H1. rewrite Happ in H1.
  apply (FL_append_all fs 0 io nm fid f [r] f' [p] evs HF (Forall_cons r Hs (Forall_nil _))); [|exact H1].
  cbn [sum_est length]. destruct Hcase as [A|A]; [left; lia|right; split; [exact A|lia]].
Qed.

(* room for the sealing record of a batch behind what the file holds *)
Definition seal_room (fs : N) (f : lfile) : Prop := lf_size f + maxFinRecord <= fs \/ exists x, lf_recs f = [x].

Lemma FL_append_seal fs io nm fid f s f' p evs :
  FL fs f -> seal_room fs f -> rec_small s -> rec_est s <= maxFinRecord -> r_type s = rt_BatchFinished ->
  lf_append io nm fid f s = (f', p, evs) -> FL fs f'.
Proof.
  intros HF Hroom Hs Hest Hty Happ. destruct (lf_append_growth _ _ _ _ _ _ _ _ Hs Happ) as (G1 & G2 & G4).
  destruct (lf_append_fields _ _ _ _ _ _ _ _ Happ) as (G3 & _).
  apply (FL_grow fs f f' [(s, p)] HF G3); [constructor; [exact Hs|constructor]|exact G1|intros _; exact G4|].
  destruct Hroom as [Hfit|[x Hx]]; [left; lia|right]. unfold single. rewrite G3, Hx. exact Hty.
Qed.

(* FLs: FL for the active and the older files of a database or of a merge output *)
Definition FLs (fs : N) (a : lfile) (o : list (N * lfile)) : Prop := FL fs a /\ Forall (fun x => FL fs (snd x)) o.

Definition kv_small (k v : bytes) : Prop := len k + len v <= kv_max.
Definition staged_small (r : record) : Prop := kv_small (r_key r) (r_value r).

Lemma est_mono k v v' : v' <= v -> disk_size_estimate k v' <= disk_size_estimate k v.
Proof. intros H. rewrite !estimate_val. assert ((k + v' + 32) / 32768 <= (k + v + 32) / 32768) by (apply N.div_le_mono; lia). lia. Qed.
Lemma sum_est_app a b : sum_est (a ++ b) = sum_est a + sum_est b.
Proof. induction a as [|r a IH]; cbn [app sum_est]; [reflexivity|]. rewrite IH. lia. Qed.
Lemma sum_est_tag id rs : sum_est (map (tag id) rs) = sum_est rs.
Proof. induction rs as [|r rs IH]; cbn [map sum_est]; [reflexivity|]. rewrite IH. reflexivity. Qed.
Lemma tag_small id rs : id < 18446744073709551616 -> Forall staged_small rs -> Forall rec_small (map (tag id) rs).
Proof. intros Hid H. apply Forall_map. apply (Forall_impl _ (fun r Hr => conj Hr Hid) H). Qed.

(* BI, the batch invariant: the cache counter covers what is staged; what is staged fits the file limit together
   with the sealing record, or it is a single record *)
Definition BI (fs : N) (b : batch) : Prop :=
  sum_est (b_staged b) <= b_cached b /\
  (sum_est (b_staged b) + maxFinRecord <= fs \/ (length (b_staged b) <= 1)%nat) /\
  Forall staged_small (b_staged b) /\ b_id b < 18446744073709551616.

Lemma BI_empty fs committed sync id : id < 18446744073709551616 -> BI fs (mkBatch [] 0 committed sync id).
Proof. intros Hid. split; [cbn; lia|]. split; [right; cbn; lia|]. split; [constructor|exact Hid]. Qed.

Lemma BI_stage fs b r :
  BI fs b -> staged_small r -> b_cached b + rec_est r + maxFinRecord <= fs ->
  BI fs (with_staged b (b_staged b ++ [r]) (b_cached b + rec_est r)).
Proof.
  intros (Hsum & Hfit & Hsm & Hid) Hr Hc. unfold BI, with_staged. cbn [b_staged b_cached b_id].
  rewrite sum_est_app. cbn [sum_est]. split; [lia|]. split; [left; lia|]. split; [|exact Hid].
  apply Forall_app. split; [exact Hsm|constructor; [exact Hr|constructor]].
Qed.

Lemma staged_update_sum f : forall st k r, staged_find st k = Some r ->
  sum_est (staged_update st k f) + rec_est r = sum_est st + rec_est (f r) /\
  length (staged_update st k f) = length st /\
  (forall P : record -> Prop, Forall P st -> P (f r) -> Forall P (staged_update st k f)).
Proof.
  induction st as [|x st IH]; intros k r Hf; cbn [staged_find] in Hf; [discriminate|]. cbn [staged_update].
  destruct (bytes_eqb (r_key x) k).
  - injection Hf as <-. cbn [sum_est length]. split; [lia|]. split; [reflexivity|].
    intros P HP Hfr. constructor; [exact Hfr|exact (Forall_inv_tail HP)].
  - destruct (IH k r Hf) as (A & B & F). cbn [sum_est length]. split; [lia|]. split; [lia|].
    intros P HP Hfr. constructor; [exact (Forall_inv HP)|apply F; [exact (Forall_inv_tail HP)|exact Hfr]].
Qed.

Lemma BI_update fs b k f r c :
  BI fs b -> staged_find (b_staged b) k = Some r -> staged_small (f r) -> b_cached b + rec_est (f r) <= c + rec_est r ->
  c + maxFinRecord <= fs \/ rec_est (f r) <= rec_est r ->
  BI fs (with_staged b (staged_update (b_staged b) k f) c).
Proof.
  intros (Hsum & Hfit & Hsm & Hid) Hfind Hr Hc Hcase. destruct (staged_update_sum f _ _ _ Hfind) as (A & B & F).
  unfold BI, with_staged. cbn [b_staged b_cached b_id]. split; [lia|]. split; [|split; [exact (F _ Hsm Hr)|exact Hid]].
  destruct Hcase as [C|C]; [left; lia|]. rewrite B. destruct Hfit as [E|E]; [left; lia|right; exact E].
Qed.

Lemma dec_digits_fuel_len : forall m f x acc, x < 10 ^ N.of_nat (S m) -> len (dec_digits_fuel f x acc) <= len acc + N.of_nat (S m).
Proof.
  induction m as [|m IH]; intros f x acc Hx; destruct f as [|f]; cbn [dec_digits_fuel]; try lia.
  - change (10 ^ N.of_nat 1) with 10 in Hx. destruct (x / 10 =? 0) eqn:E; [rewrite len_cons; lia|apply N.eqb_neq in E; lia].
  - destruct (x / 10 =? 0) eqn:E; [rewrite len_cons; lia|].
    pose proof (IH f (x / 10) ((48 + x mod 10) :: acc) (div_lt_pow 10 m x ltac:(lia) Hx)) as H. rewrite len_cons in H. lia.
Qed.
Lemma dec_digits_len id : id < 18446744073709551616 -> len (dec_digits id) <= 20.
Proof. intros H. apply (dec_digits_fuel_len 19 25 id []). eapply N.lt_le_trans; [exact H|]. vm_compute. discriminate. Qed.

Lemma seal_small id : id < 18446744073709551616 -> rec_small (seal id) /\ rec_est (seal id) <= maxFinRecord.
Proof.
  intros H. pose proof (dec_digits_len id H) as L. unfold seal. split.
  - split; [cbn [r_key r_value]; rewrite len_nil; unfold kv_max; lia|exact H].
  - unfold rec_est. cbn [r_key r_value]. rewrite len_nil, estimate_val. change maxFinRecord with 70. lia.
Qed.

(* FLc: the database runs under configuration c and its files respect c's limit *)
Definition FLc (c : cfg) (d : db) : Prop := d_cfg d = c /\ FLs (c_fsize c) (d_active d) (d_older d).

Lemma FL_remapped io fs f f' : remapped io f f' -> FL fs f -> FL fs f'.
Proof. intros (Hr & Hs & _). exact (FL_same fs f f' Hr Hs). Qed.

Lemma FLc_touched {io} c d d' : touched_by io d d' -> FLc c d -> FLc c d'.
Proof.
  intros (a & o & Ha & Ho & ->) (Hc & HFa & HFo). split; [exact Hc|]. split; [exact (FL_remapped _ _ _ _ Ha HFa)|].
  refine (files_touched_Forall _ _ _ _ _ Ho HFo). intros id f f' Hr. exact (FL_remapped _ _ _ _ Hr).
Qed.
Lemma FLc_index_only c d d' : index_only d d' -> FLc c d -> FLc c d'.
Proof. intros (ix & tot & rc & ->) H. exact H. Qed.
Lemma FLc_set_active c d a : FLc c d -> FL (c_fsize c) a -> FLc c (set_active d (d_active_id d) a).
Proof. intros (Hc & _ & Ho) Ha. split; [exact Hc|]. split; [exact Ha|exact Ho]. Qed.

Lemma FL_if_synced fs (s : bool) a : FL fs a -> FL fs (if s then synced a else a).
Proof. destruct s; [apply FL_same; reflexivity|auto]. Qed.

Lemma FLc_rotated c d : FLc c d -> FLc c (rotated d) /\ lf_size (d_active (rotated d)) = 0.
Proof.
  intros (Hc & Ha & Ho). destruct (opened_fields (io_of d) lf_empty) as (Hr & Hs & _). split; [|exact Hs].
  split; [exact Hc|]. split; [exact (FL_new _ _ Hr Hs)|]. apply older_set_Forall; [exact Ho|]. exact (FL_if_synced _ true _ Ha).
Qed.

Lemma db_append_FL c d r d' p evs : FLc c d -> rec_small r -> db_append d r = (d', p, evs) -> FLc c d'.
Proof.
  intros HF Hs Ha. pose proof (proj1 HF) as Hc. subst c.
  destruct (db_append_shape _ _ _ _ _ Ha) as (d1 & ev1 & a & ev2 & Hrot & Happ & ->). cbv zeta. fold (rec_est r) in Hrot.
  assert (H1 : FLc (d_cfg d) d1 /\ (lf_size (d_active d1) + rec_est r <= c_fsize (d_cfg d) \/ lf_size (d_active d1) = 0)).
  { destruct (c_fsize (d_cfg d) <? lf_size (d_active d) + rec_est r) eqn:Efit.
    - rewrite (db_rotate_inv _ _ _ Hrot). destruct (FLc_rotated _ d HF) as [A B]. auto.
    - injection Hrot as <- _. apply N.ltb_ge in Efit. auto. }
  destruct H1 as [(Hc & Ha1 & Ho1) Hcase]. split; [exact Hc|]. split; [|exact Ho1].
  apply FL_if_synced. exact (FL_append_fit _ _ _ _ _ _ _ _ _ Ha1 Hs Hcase Happ).
Qed.

Lemma mkRec_small ty k v : kv_small k v -> rec_small (mkRec ty k v 0).
Proof. intros H. split; [exact H|cbn; lia]. Qed.

Lemma db_put_FL c d k v d' e evs : FLc c d -> kv_small k v -> db_put d k v = (d', e, evs) -> FLc c d'.
Proof.
  intros HF Hs Hp. destruct (db_put_cases _ _ _ _ _ _ Hp) as [(_ & -> & _)|(_ & _ & d1 & p & Ha & ->)]; [exact HF|].
  apply (FLc_index_only c d1); [apply idx_upd_index_only|]. exact (db_append_FL _ _ _ _ _ _ HF (mkRec_small _ _ _ Hs) Ha).
Qed.
Lemma db_delete_FL c d k d' e evs : FLc c d -> len k <= kv_max -> db_delete d k = (d', e, evs) -> FLc c d'.
Proof.
  intros HF Hs Hp.
  destruct (db_delete_cases _ _ _ _ _ Hp) as [(_ & -> & _)|[(_ & _ & -> & _)|(_ & _ & d1 & p & Ha & -> & _)]]; try exact HF.
  apply (FLc_index_only c d1); [apply idx_upd_index_only|]. refine (db_append_FL _ _ _ _ _ _ HF (mkRec_small _ _ _ _) Ha).
  unfold kv_small. rewrite len_nil. lia.
Qed.

(* ---- batches ---- *)
Lemma batch_flush_FL c d b d' b' evs : FLc c d -> BI (c_fsize c) b -> batch_flush d b = (d', b', evs) ->
  FLc c d' /\ (b_staged b <> [] -> seal_room (c_fsize c) (d_active d')).
Proof.
  intros HF (Hsum & Hfit & Hsm & Hid) Hf. pose proof (proj1 HF) as Hc. subst c.
  destruct (batch_flush_shape _ _ _ _ _ Hf) as (_ & d1 & ev1 & a & ps & ev2 & Hrot & Happ & ->).
  set (fs := c_fsize (d_cfg d)) in *. set (rs := map (tag (b_id b)) (b_staged b)) in *.
  assert (H1 : FLc (d_cfg d) d1 /\ (lf_size (d_active d1) + b_cached b + maxFinRecord <= fs \/ lf_size (d_active d1) = 0)).
  { destruct ((0 <? lf_size (d_active d)) && (fs <? lf_size (d_active d) + b_cached b + maxFinRecord)) eqn:Erot.
    - rewrite (db_rotate_inv _ _ _ Hrot). destruct (FLc_rotated _ d HF) as [A B]. auto.
    - injection Hrot as <- _. split; [exact HF|]. apply andb_false_iff in Erot. destruct Erot as [E|E]; apply N.ltb_ge in E; [right|left]; lia. }
  destruct H1 as [HF1 Hcase]. pose proof (tag_small _ _ Hid Hsm) as Hrs. fold rs in Hrs.
  destruct (FL_append_all fs maxFinRecord (io_of d1) (FData (d_active_id d1)) (d_active_id d1) _ rs a ps ev2 (proj1 (proj2 HF1)) Hrs) as [Ha Hroom];
    [|exact Happ|].
  { unfold rs. rewrite sum_est_tag, map_length. destruct Hcase as [A|A]; [left; lia|]. destruct Hfit as [F|F]; [left; lia|right; auto]. }
  destruct (apply_staged_index_only (combine rs ps) (set_active d1 (d_active_id d1) (if b_sync b then synced a else a))) as (ix & tot & rc & ->).
  split; [exact (FLc_set_active _ d1 _ HF1 (FL_if_synced _ _ _ Ha))|]. intros Hne. cbn [d_active set_active].
  assert (Hr : seal_room fs a) by (apply Hroom; unfold rs; destruct (b_staged b); [congruence|discriminate]).
  destruct (b_sync b); exact Hr.
Qed.
Lemma batch_flush_rotate_FL c d b d' b' evs : FLc c d -> BI (c_fsize c) b -> batch_flush_rotate d b = (d', b', evs) -> FLc c d'.
Proof.
  intros HF HB Hf. destruct (batch_flush_rotate_shape _ _ _ _ _ Hf) as (d0 & ev0 & Hf0 & ->).
  exact (proj1 (FLc_rotated _ _ (proj1 (batch_flush_FL _ _ _ _ _ _ HF HB Hf0)))).
Qed.

Lemma BI_single fs r committed sync id :
  staged_small r -> id < 18446744073709551616 -> BI fs (mkBatch [r] (rec_est r) committed sync id).
Proof. intros Hr Hid. split; [cbn; lia|]. split; [right; cbn; lia|]. split; [constructor; [exact Hr|constructor]|exact Hid]. Qed.

Lemma batch_put_FL c d b k v d' b' e evs :
  FLc c d -> BI (c_fsize c) b -> kv_small k v -> batch_put d b k v = (d', b', e, evs) -> FLc c d' /\ BI (c_fsize c) b'.
Proof.
  intros HF HB Hs Hp. pose proof (proj2 (proj2 (proj2 HB))) as Hid. pose proof (proj1 HF) as Hc. subst c.
  destruct (batch_put_cases _ _ _ _ _ _ _ _ Hp) as [(-> & -> & _)|(_ & _ & _ & [(Hf & ->)|(-> & _ & [(_ & E & ->)|(r & c & Efind & [-> E] & ->)])])].
  - auto.
  - exact (conj (batch_flush_rotate_FL _ _ _ _ _ _ HF HB Hf) (BI_single _ (mkRec rt_Normal k v 0) _ _ _ Hs Hid)).
  - apply N.ltb_ge in E. split; [exact HF|].
    exact (BI_stage _ b (mkRec rt_Normal k v 0) HB Hs E).
  - apply N.ltb_ge in E. split; [exact HF|]. cbn [r_key] in Efind. destruct (staged_find_in _ _ _ Efind) as [_ <-].
    apply BI_update with (r := r); [exact HB|exact Efind|exact Hs| |left; exact E]. unfold rec_est. cbn [r_key r_value]. lia.
Qed.

Lemma batch_delete_FL c d b k d' b' e evs :
  FLc c d -> BI (c_fsize c) b -> len k <= kv_max -> batch_delete d b k = (d', b', e, evs) -> FLc c d' /\ BI (c_fsize c) b'.
Proof.
  intros HF HB Hs Hp. pose proof (proj2 (proj2 (proj2 HB))) as Hid. pose proof (proj1 HF) as Hc. subst c.
  assert (Hnew : staged_small (mkRec rt_Deleted k [] 0)) by (unfold staged_small, kv_small; cbn [r_key r_value]; rewrite len_nil; lia).
  destruct (batch_delete_cases _ _ _ _ _ _ _ Hp) as [(-> & -> & _)|(_ & _ & _ & [(Hf & ->)|(-> & _ & [(_ & E & ->)|(r & c & Efind & -> & ->)])])].
  - auto.
  - exact (conj (batch_flush_rotate_FL _ _ _ _ _ _ HF HB Hf) (BI_single _ (mkRec rt_Deleted k [] 0) _ _ _ Hnew Hid)).
  - apply N.ltb_ge in E. split; [exact HF|].
    exact (BI_stage _ b (mkRec rt_Deleted k [] 0) HB Hnew E).
  - cbn [r_key r_type r_value] in *. split; [exact HF|]. destruct (staged_find_in _ _ _ Efind) as [Hin _].
    pose proof (proj1 (Forall_forall _ _) (proj1 (proj2 (proj2 HB))) r Hin) as Hr.
    assert (Hle : rec_est (mkRec rt_Deleted (r_key r) [] 0) <= rec_est r) by (apply est_mono, N.le_0_l).
    apply BI_update with (r := r); [exact HB|exact Efind| |lia|right; exact Hle].
    unfold staged_small, kv_small in *. cbn [r_key r_value]. rewrite len_nil. lia.
Qed.

Lemma batch_commit_FL c d b d' b' e evs : FLc c d -> BI (c_fsize c) b -> batch_commit d b = (d', b', e, evs) -> FLc c d'.
Proof.
  intros HF HB Hc.
  destruct (batch_commit_cases _ _ _ _ _ _ Hc) as [(_ & -> & _)|(_ & _ & _ & [(_ & -> & _)|(Hne & d1 & b1 & ev1 & a & p & ev2 & Hfl & Happ & ->)])];
    try exact HF.
  destruct (batch_flush_FL c d (mkBatch (b_staged b) (b_cached b) true (b_sync b) (b_id b)) _ _ _ HF HB Hfl) as (HF1 & Hroom).
  destruct (seal_small (b_id b) (proj2 (proj2 (proj2 HB)))) as [Hss Hse].
  apply (FLc_set_active c d1 _ HF1), FL_if_synced.
  exact (FL_append_seal _ _ _ _ _ _ _ _ _ (proj1 (proj2 HF1)) (Hroom Hne) Hss Hse eq_refl Happ).
Qed.

Definition bop_small (o : bop) : Prop :=
  match o with BPut k v => kv_small k v | BDel k => len k <= kv_max | BGet _ => True end.
Definition op_small (o : op) : Prop :=
  match o with
  | OpPut k v => kv_small k v
  | OpDel k => len k <= kv_max
  | OpBatch _ id bops => id < 18446744073709551616 /\ Forall bop_small bops
  | OpRestart _ => False
  | _ => True
  end.

Lemma run_bops_FL c bops d b d' b' rs evs :
  FLc c d -> BI (c_fsize c) b -> Forall bop_small bops -> run_bops d b bops = (d', b', rs, evs) -> FLc c d' /\ BI (c_fsize c) b'.
Proof.
  intros HF HB. apply (run_bops_ind_ok (fun d b => FLc c d /\ BI (c_fsize c) b) bop_small); [| | |split; assumption].
  - intros d0 b0 k v d1 b1 e ev [A B] Hs. exact (batch_put_FL _ _ _ _ _ _ _ _ _ A B Hs).
  - intros d0 b0 k d1 b1 e ev [A B] Hs. exact (batch_delete_FL _ _ _ _ _ _ _ _ A B Hs).
  - intros d0 b0 k d1 r ev [A B] _ Hg. split; [exact (FLc_touched _ _ _ (batch_get_touched _ _ _ _ _ _ Hg) A)|exact B].
Qed.

Lemma db_merge_FL c d k order d' k' e evs : FLc c d -> db_merge d k order = (d', k', e, evs) -> FLc c d'.
Proof.
  intros HF Hm. destruct (db_merge_shape _ _ _ _ _ _ _ Hm) as (d1 & ev1 & d2 & res & ev5 & Hrot & Hmf & _ & Hres).
  rewrite (db_rotate_inv _ _ _ Hrot) in Hmf.
  pose proof (FLc_touched c _ _ (merge_files_touched_by _ _ _ _ _ _ _ _ Hmf) (proj1 (FLc_rotated c d HF))) as HF2.
  destruct res as [m|er m]; [|destruct Hres as (-> & _); exact HF2].
  destruct Hres as ((evS & Hs) & _). rewrite db_sync_eq in Hs. injection Hs as <- _.
  exact (FLc_set_active c d2 _ HF2 (FL_if_synced _ true _ (proj1 (proj2 HF2)))).
Qed.

Lemma step_FL c d k o d' k' r evs : FLc c d -> op_small o -> step (d, k) o = ((d', k'), r, evs) -> FLc c d'.
Proof.
  intros HF Ho Hs. apply step_cases in Hs. destruct o as [key v|key|key| | | | |sync id bops|order|c0]; cbn [op_small] in Ho.
  - destruct Hs as (_ & e & Hp & _). exact (db_put_FL _ _ _ _ _ _ _ HF Ho Hp).
  - destruct Hs as (_ & v & Hg & _). exact (FLc_touched _ _ _ (db_get_touched _ _ _ _ _ Hg) HF).
  - destruct Hs as (_ & e & Hp & _). exact (db_delete_FL _ _ _ _ _ _ HF Ho Hp).
  - destruct Hs as (_ & -> & _). exact HF.
  - destruct Hs as (_ & x & Hf & _). exact (FLc_touched _ _ _ (db_fold_aux_touched _ _ _ _ _ Hf) HF).
  - destruct Hs as (_ & -> & _). exact HF.
  - destruct Hs as (_ & Hsy & _). rewrite db_sync_eq in Hsy. injection Hsy as <- _.
    exact (FLc_set_active c d _ HF (FL_if_synced _ true _ (proj1 (proj2 HF)))).
  - destruct Hs as (_ & d1 & b1 & rs & ev1 & b2 & e & ev2 & Hr & Hc & _). destruct Ho as [Hid Hb].
    destruct (run_bops_FL c bops d _ d1 b1 rs ev1 HF (BI_empty _ _ _ _ Hid) Hb Hr) as [HF1 HB1].
    exact (batch_commit_FL _ _ _ _ _ _ _ HF1 HB1 Hc).
  - destruct Hs as (e & Hm & _). exact (db_merge_FL _ _ _ _ _ _ _ _ HF Hm).
  - contradiction.
Qed.

Theorem files_respect_the_limit c ops d k d' k' rs evs :
  FLc c d -> Forall op_small ops -> run (d, k) ops = ((d', k'), rs, evs) -> FLc c d'.
Proof.
  intros HF. apply (run_invariant (fun s => FLc c (fst s)) op_small); [|exact HF].
  intros [d0 k0] o [d1 k1] r e H Ho Hs. exact (step_FL _ _ _ _ _ _ _ _ H Ho Hs).
Qed.

Lemma open_empty_FL c d k evs : db_open c empty_disk = (OpenOk d k, evs) -> FLc c d /\ k_merge k = None.
Proof.
  rewrite db_open_empty. intros [= <- <- _]. destruct (opened_fields (c_io c) lf_empty) as (R1 & R2 & _).
  split; [|reflexivity]. split; [reflexivity|]. split; [exact (FL_new _ _ R1 R2)|constructor].
Qed.

Theorem limit_from_empty c ops d0 k0 e0 d k rs evs :
  db_open c empty_disk = (OpenOk d0 k0, e0) -> Forall op_small ops -> run (d0, k0) ops = ((d, k), rs, evs) ->
  (lf_size (d_active d) <= c_fsize c \/ single (d_active d)) /\
  (forall i f, In (i, f) (d_older d) -> lf_size f <= c_fsize c \/ single f).
Proof.
  intros Ho Hs Hr. destruct (files_respect_the_limit c ops d0 k0 d k rs evs (proj1 (open_empty_FL _ _ _ _ Ho)) Hs Hr) as (_ & Ha & Hold).
  split; [exact (proj2 (proj2 Ha))|]. intros i f Hin. exact (proj2 (proj2 (proj1 (Forall_forall _ _) Hold _ Hin))).
Qed.

Lemma restart_FL c d k k1 ev1 c0 d1 k2 ev2 :
  FLc c d -> k_merge k = None -> c_fsize c <= c_fsize c0 -> db_close d k = (k1, ev1) -> db_open c0 k1 = (OpenOk d1 k2, ev2) ->
  FLc c0 d1 /\ k_merge k2 = None.
Proof.
  intros (_ & Ha & Ho) Hnm Hle Hc H. pose proof (db_close_fst d k) as Hk. rewrite Hc in Hk. cbn [fst] in Hk.
  assert (Hl : load_merge_files k1 = (k1, 0, [])) by (unfold load_merge_files; rewrite Hk; cbn [k_merge]; rewrite Hnm; reflexivity).
  destruct (db_open_files (FL (c_fsize c0)) c0 k1 k1 0 [] d1 k2 ev2 Hl H (fun f => FL_if_synced _ true f)) as [(A & B & E) Hm].
  - destruct (opened_fields (c_io c0) lf_empty) as (R1 & R2 & _). exact (FL_new _ _ R1 R2).
  - rewrite Hk. apply Forall_forall. intros [i g] Hg. apply in_map_files in Hg. destruct Hg as (f & Hf & ->). cbn [snd].
    destruct (opened_fields (c_io c0) (closed f)) as (R1 & R2 & _).
    apply (FL_mono (c_fsize c)), (FL_same _ f); [exact Hle|exact R1|exact R2|].
    destruct (in_older_set _ _ _ _ Hf) as [[= _ ->]|Hin]; [exact Ha|exact (proj1 (Forall_forall _ _) Ho _ Hin)].
  - split; [split; [exact E|split; assumption]|]. rewrite Hm, Hk. exact Hnm.
Qed.

(* histories with restarts: every restart reopens with a limit at least as large as the one before; no merges *)
Fixpoint ops_small_r (fs : N) (ops : list op) : Prop :=
  match ops with
  | [] => True
  | OpRestart c :: r => fs <= c_fsize c /\ ops_small_r (c_fsize c) r
  | OpMerge _ :: r => False
  | o :: r => op_small o /\ ops_small_r fs r
  end.

Theorem files_respect_the_limit_across_restarts : forall ops c d k d' k' rs evs,
  FLc c d -> k_merge k = None -> ops_small_r (c_fsize c) ops -> run (d, k) ops = ((d', k'), rs, evs) -> FLc (d_cfg d') d'.
Proof.
  induction ops as [|o ops IH]; intros c d k d' k' rs evs HF Hnm Hs Hr; cbn [run] in Hr.
  - injection Hr as <- _ _. rewrite (proj1 HF). exact HF.
  - destruct (step (d, k) o) as [[[d1 k1] r] ev1] eqn:E1. destruct (run (d1, k1) ops) as [[[d2 k2] rs2] ev2] eqn:E2. injection Hr as <- _ _.
    assert (Hplain : op_small o /\ ops_small_r (c_fsize c) ops -> k1 = k -> FLc (d_cfg d2) d2).
    { intros [Ho Hrest] ->. exact (IH c d1 k d2 k2 rs2 ev2 (step_FL _ _ _ _ _ _ _ _ HF Ho E1) Hnm Hrest E2). }
    pose proof (step_cases _ _ _ _ _ _ _ E1) as Hc.
    destruct o as [key v|key|key| | | | |sync id bops|order|c0]; cbn [ops_small_r] in Hs; try exact (Hplain Hs (proj1 Hc)).
    + contradiction.
    + destruct Hs as [Hle Hrest]. destruct Hc as (kc & evc & evo & Hcl & Hop & _).
      destruct (restart_FL _ _ _ _ _ _ _ _ _ HF Hnm Hle Hcl Hop) as [HF0 Hm0].
      exact (IH c0 d1 k1 d2 k2 rs2 ev2 HF0 Hm0 Hrest E2).
Qed.

Theorem limit_from_empty_with_restarts c ops d0 k0 e0 d k rs evs :
  db_open c empty_disk = (OpenOk d0 k0, e0) -> ops_small_r (c_fsize c) ops -> run (d0, k0) ops = ((d, k), rs, evs) ->
  (lf_size (d_active d) <= c_fsize (d_cfg d) \/ single (d_active d)) /\
  (forall i f, In (i, f) (d_older d) -> lf_size f <= c_fsize (d_cfg d) \/ single f).
Proof.
  intros Ho Hs Hr. destruct (open_empty_FL _ _ _ _ Ho) as [HF Hk].
  destruct (files_respect_the_limit_across_restarts ops c d0 k0 d k rs evs HF Hk Hs Hr) as (_ & Ha & Hold).
  split; [exact (proj2 (proj2 Ha))|]. intros i f Hin. exact (proj2 (proj2 (proj1 (Forall_forall _ _) Hold _ Hin))).
Qed.

(* ---- the rewritten files of a Merge respect the limit too ---- *)
(* MSI, the invariant of the merge state: its output files respect the limit *)
Definition MSI (fs : N) (m : mstate) : Prop := FLs fs (ms_active m) (ms_older m).
Lemma ms_append_FL c m r m' p evs : MSI (c_fsize c) m -> rec_small r -> ms_append c m r = (m', p, evs) -> MSI (c_fsize c) m'.
Proof.
  intros [Ha Ho] Hs Happ. destruct (ms_append_shape _ _ _ _ _ _ Happ) as (m1 & a & ev2 & Hm1 & Hla & ->). fold (rec_est r) in Hm1.
  destruct (opened_fields (c_io c) lf_empty) as (R1 & R2 & _).
  destruct Hm1 as [[-> Hfit]| ->]; split; cbn [ms_rotated ms_active ms_older].
  - exact (FL_append_fit _ _ _ _ _ _ _ _ _ Ha Hs (or_introl Hfit) Hla).
  - exact Ho.
  - exact (FL_append_fit _ _ _ _ _ _ _ _ _ (FL_new _ _ R1 R2) Hs (or_intror R2) Hla).
  - apply older_set_Forall; [exact Ho|exact (FL_if_synced _ true _ Ha)].
Qed.

(* MSI does not look at the hint file *)
Lemma ms_emits_MSI c nm m l m' : ms_emits c nm m l m' -> Forall rec_small l -> MSI (c_fsize c) m -> MSI (c_fsize c) m'.
Proof.
  induction 1 as [|m r m1 np ev1 m2 ev2 l m' Ha _ Hh _ IH]; intros Hl HM; [exact HM|].
  apply (IH (Forall_inv_tail Hl)). destruct (ms_hint_append_spec _ _ _ _ _ _ Hh) as (_ & B & C & _).
  unfold MSI. rewrite B, C. exact (ms_append_FL _ _ _ _ _ _ HM (Forall_inv Hl) Ha).
Qed.

Theorem merge_output_respects_the_limit c d k order d' k' evs :
  FLc c d -> db_merge d k order = (d', k', None, evs) ->
  exists md, k_merge k' = Some md /\ forall i f, In (i, f) (m_files md) -> lf_size f <= c_fsize c \/ single f.
Proof.
  intros HF Hm. destruct (db_merge_shape _ _ _ _ _ _ _ Hm) as (d1 & ev1 & d2 & res & ev5 & Hrot & Hmf & _ & Hres).
  destruct res as [m|er m]; [|destruct Hres as (_ & [=] & _)]. destruct Hres as (_ & _ & Hk). eexists. split; [exact Hk|].
  rewrite (db_rotate_inv _ _ _ Hrot), (proj1 HF) in Hmf.
  assert (HM0 : MSI (c_fsize c) (ms_init (io_of d))).
  { destruct (opened_fields (io_of d) lf_empty) as (R1 & R2 & _). split; [exact (FL_new _ _ R1 R2)|constructor]. }
  assert (Hl : Forall rec_small (merged_log (rotated d) order)).
  { apply Forall_forall. intros r0 Hin. apply in_merged_log in Hin. destruct Hin as (fid & rp & _ & Hin & _ & ->).
    unfold frecs in Hin. destruct (older_get (d_older (rotated d)) fid) as [f|] eqn:Eg; [|destruct Hin].
    pose proof (proj1 (Forall_forall _ _) (proj2 (proj2 (proj1 (FLc_rotated c d HF)))) _ (older_get_some_in _ _ _ Eg)) as Hf.
    exact (mkRec_small _ _ _ (proj1 (proj1 (Forall_forall _ _) (proj1 (proj2 Hf)) _ Hin))). }
  destruct (ms_emits_MSI _ _ _ _ _ (merge_files_emits _ _ _ _ _ _ _ _ Hmf) Hl HM0) as [Ha Ho].
  cbn [m_files ms_finish] in *. intros i f Hf. apply in_map_files in Hf. destruct Hf as (f0 & Hf0 & ->).
  apply (fun H => proj2 (proj2 (FL_same (c_fsize c) f0 (closed f0) eq_refl eq_refl H))).
  destruct (in_older_set _ _ _ _ Hf0) as [[= _ ->]|Hin]; [exact Ha|exact (proj1 (Forall_forall _ _) Ho _ Hin)].
Qed.
