(* DataTypeEngine.v — histories of data-structure commands, restarts, merges and syncs on the engine model
   behave as the abstract types (C19): DataTypeSim (engine -> ordered map, any reachable state) composed
   with DataTypeRefine (ordered map -> abstract types). *)
From Coq Require Import List NArith Lia Bool.
From KV Require Import Bytes GenConsts BytesLemmas Record Engine Script DataType DataTypeRun DataTypeSpec.
From KV Require Import EngineRefine EngineMergeRun DataTypeCodec DataTypeSim DataTypeRefine.
Import ListNotations.
Open Scope N_scope.

(* what a client of the layer does: a command (with the clock readings and the batch id the implementation
   drew), or an operation of the engine underneath that leaves the mapping alone *)
Inductive dop := DCmd (c : cmd) (ver now bid : N) | DEng (o : op).

Definition keeps_map (o : op) : Prop :=
  match o with OpRestart _ | OpMerge _ | OpSync | OpList | OpFold | OpStat | OpGet _ => True | _ => False end.

Definition dstep (s : state) (x : dop) : state * option outcome :=
  match x with
  | DCmd c ver now bid => let '(d', out, _) := run_cmd (fst s) c ver now bid in ((d', snd s), Some out)
  | DEng o => (fst (fst (step s o)), None)
  end.

Fixpoint drun (s : state) (h : list dop) : state * list (option outcome) :=
  match h with
  | [] => (s, [])
  | x :: r => let '(s1, o) := dstep s x in let '(s2, os) := drun s1 r in (s2, o :: os)
  end.

(* the reference: the abstract types; engine operations do nothing *)
Fixpoint arun (A : astate) (h : list dop) : astate * list (option dreply) :=
  match h with
  | [] => (A, [])
  | DCmd c _ now _ :: r => let '(A1, rep) := a_cmd A c now in let '(A2, os) := arun A1 r in (A2, Some rep :: os)
  | DEng _ :: r => let '(A2, os) := arun A r in (A2, None :: os)
  end.

Definition same_reply (o : option outcome) (r : option dreply) : Prop :=
  match o, r with
  | Some (OReply x), Some y => canon x = y
  | None, None => True
  | _, _ => False
  end.

Section Hist.
Variable U : bytes -> Prop.
Variable V : N -> Prop.
Variable ZM : bytes -> Prop.
Variable ZS : bytes -> Prop.
Hypothesis U_nonempty : forall k, U k -> len k <> 0.
Hypothesis V_bound : forall v, V v -> v < 2 ^ 63.
Hypothesis Sep1 : forall k k' v y, U k -> U k' -> V v -> k' <> ikey k v y.
Hypothesis Sep2 : forall k k' v v' y y', U k -> U k' -> V v -> V v' -> ikey k v y = ikey k' v' y' -> k = k'.
Hypothesis ZSep : forall m m' s, ZM m -> ZM m' -> ZS s -> m <> s ++ m' ++ le32 (len m').

(* side conditions of a history: keys from U, versions from V and never repeated (the clock moves on),
   sorted-set members and scores from ZM / ZS, expiry times in range, batch ids non-zero; a Merge that
   succeeds scanned every file *)
Fixpoint dok (s : state) (used : list N) (h : list dop) : Prop :=
  match h with
  | [] => True
  | DCmd c ver now bid :: r =>
    U (cmd_key c) /\ V ver /\ ~ In ver used /\ cmd_ok ZM ZS c /\ bid <> 0 /\
    dok (fst (dstep s (DCmd c ver now bid))) (ver :: used) r
  | DEng o :: r => keeps_map o /\ gop_ok (fst s) o /\ dok (fst (dstep s (DEng o))) used r
  end.

Lemma keeps_map_sstep M o : keeps_map o -> fst (sstep M o) = M.
Proof. destruct o; cbn [keeps_map sstep]; try contradiction; reflexivity. Qed.

Theorem drun_refines : forall h d k M A n used,
  G d k M -> Rel U V ZM ZS n used M A -> n + len h < 2 ^ 63 -> dok (d, k) used h ->
  Forall2 same_reply (snd (drun (d, k) h)) (snd (arun A h)) /\
  exists M' n' used', G (fst (fst (drun (d, k) h))) (snd (fst (drun (d, k) h))) M' /\
                      Rel U V ZM ZS n' used' M' (fst (arun A h)).
Proof.
  induction h as [|x h IH]; intros d k M A n used HG HR Hn Hok; cbn [drun arun].
  - cbn [fst snd]. split; [constructor|]. exists M, n, used. auto.
  - rewrite len_cons in Hn. destruct x as [c ver now bid|o]; cbn [dok] in Hok.
    + destruct Hok as (Hk & Hv & Hfr & Hcok & Hbid & Hrest).
      cbn [dstep fst snd] in *.
      destruct (run_cmd d c ver now bid) as [[d1 out] evs] eqn:Er.
      destruct (run_cmd_G k d M c ver now bid d1 out evs HG Hbid Er) as [HG1 Hout].
      destruct (step_refines U V ZM ZS U_nonempty V_bound Sep1 Sep2 ZSep n used M A c ver now HR Hk Hv Hfr ltac:(lia) Hcok)
        as (r & Hr1 & Hr2 & HR1).
      destruct (a_cmd A c now) as [A1 rep] eqn:Ea. cbn [fst snd] in *.
      specialize (IH d1 k (fst (m_cmd M c ver now)) A1 (n + 1) (ver :: used) HG1 HR1 ltac:(lia) Hrest).
      destruct (drun (d1, k) h) as [s2 os]. destruct (arun A1 h) as [A2 rs]. cbn [fst snd] in *.
      destruct IH as [IH1 IH2]. split; [|exact IH2].
      constructor; [|exact IH1]. cbn [same_reply]. rewrite Hout, Hr1. exact Hr2.
    + destruct Hok as (Hkm & Hgop & Hrest). cbn [dstep fst snd] in *.
      destruct (step (d, k) o) as [[[d1 k1] r] evs] eqn:Es. cbn [fst snd] in *.
      destruct (step_G d k M o d1 k1 r evs HG Hgop Es) as [HG1 _].
      rewrite (keeps_map_sstep M o Hkm) in HG1.
      specialize (IH d1 k1 M A n used HG1 HR ltac:(lia) Hrest).
      destruct (drun (d1, k1) h) as [s2 os]. destruct (arun A h) as [A2 rs]. cbn [fst snd] in *.
      destruct IH as [IH1 IH2]. split; [|exact IH2]. constructor; [exact I|exact IH1].
Qed.

Theorem drun_refines_from_empty c h :
  exists d k evs, db_open c empty_disk = (OpenOk d k, evs) /\
  (len h < 2 ^ 63 -> dok (d, k) [] h ->
   Forall2 same_reply (snd (drun (d, k) h)) (snd (arun (fun _ => None) h))).
Proof.
  eexists _, _, _. split; [apply db_open_empty|]. pose proof (open_empty_G c _ _ _ (db_open_empty c)) as HG.
  intros Hn Hok.
  exact (proj1 (drun_refines h _ _ [] (fun _ => None) 0 [] HG (Rel_init U V ZM ZS) ltac:(lia) Hok)).
Qed.
End Hist.

(* a sufficient condition for the separation hypotheses: all user keys have one length *)
Lemma same_length_sep (U : bytes -> Prop) (V : N -> Prop) (L : nat) :
  (forall k, U k -> length k = L) ->
  (forall k k' v y, U k -> U k' -> V v -> k' <> ikey k v y) /\
  (forall k k' v v' y y', U k -> U k' -> V v -> V v' -> ikey k v y = ikey k' v' y' -> k = k').
Proof.
  intros HL. split.
  - intros k k' v y Hk Hk' _ He. apply (f_equal (@length _)) in He. unfold ikey in He.
    rewrite !app_length, length_le64, (HL k Hk), (HL k' Hk') in He. lia.
  - intros k k' v v' y y' Hk Hk' _ _ He. unfold ikey in He.
    apply app_eq_len in He; [exact (proj1 He)|]. rewrite (HL k Hk), (HL k' Hk'). reflexivity.
Qed.
