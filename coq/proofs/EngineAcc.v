(* EngineAcc.v — space accounting: totalSize = reclaimSize + bytes of the live records, at every
   step of every script, live and after restart (C17). *)
From Coq Require Import ZArith Lia ZifyN ZifyNat ZifyBool.
From KV Require Import Bytes GenConsts Chunk Record Engine Script EngineFiles EngineOps EngineBatch
  EngineRefine EngineRecover.
Open Scope N_scope.

Fixpoint live_sum (ix : index) : N :=
  match ix with [] => 0 | (_, p) :: r => p_size p + live_sum r end.

(* DiskSize = ReclaimableSize + bytes occupied by the live (indexed) records *)
Definition Acc (d : db) : Prop := d_total d = d_reclaim d + live_sum (d_index d).

Lemma live_sum_put ix k p :
  live_sum (fst (amap_put ix k p)) + opt_size (snd (amap_put ix k p)) = live_sum ix + p_size p.
Proof.
  induction ix as [|[k0 p0] ix IH]; cbn [amap_put fst snd live_sum opt_size]; [lia|].
  destruct (bytes_eqb k k0); [cbn [fst snd live_sum opt_size]; lia|].
  destruct (bytes_ltb k k0); [cbn [fst snd live_sum opt_size]; lia|].
  destruct (amap_put ix k p) as [r o]. cbn [fst snd live_sum] in *. lia.
Qed.
Lemma live_sum_del ix k :
  live_sum (fst (amap_del ix k)) + opt_size (snd (amap_del ix k)) = live_sum ix.
Proof.
  induction ix as [|[k0 p0] ix IH]; cbn [amap_del fst snd live_sum opt_size]; [lia|].
  destruct (bytes_eqb k k0); [cbn [fst snd live_sum opt_size]; lia|].
  destruct (amap_del ix k) as [r o]. cbn [fst snd live_sum] in *. lia.
Qed.

(* the index update moves the bytes of p to the live or to the reclaimable side; the total is bumped elsewhere *)
Lemma idx_upd_sum d r p :
  d_reclaim (idx_upd d r p) + live_sum (d_index (idx_upd d r p)) = d_reclaim d + live_sum (d_index d) + p_size p /\
  d_total (idx_upd d r p) = d_total d.
Proof.
  unfold idx_upd, idx_del, idx_put. destruct (r_type r =? rt_Deleted).
  - pose proof (live_sum_del (d_index d) (r_key r)) as Hl.
    destruct (amap_del (d_index d) (r_key r)) as [ix old]. cbn [fst snd] in Hl. cbn. lia.
  - pose proof (live_sum_put (d_index d) (r_key r) p) as Hl.
    destruct (amap_put (d_index d) (r_key r) p) as [ix old]. cbn [fst snd] in Hl. cbn. lia.
Qed.
Lemma idx_upd_acc d r p : d_total d = d_reclaim d + live_sum (d_index d) + p_size p -> Acc (idx_upd d r p).
Proof. intros H. destruct (idx_upd_sum d r p) as [A B]. unfold Acc. lia. Qed.
Lemma idx_step_acc d r p bw :
  Acc d -> Acc (set_counters (idx_upd d r p) bw (d_total d + p_size p) (d_reclaim (idx_upd d r p))).
Proof. intros H. destruct (idx_upd_sum d r p) as [A _]. unfold Acc in *. cbn [set_counters d_total d_reclaim d_index]. lia. Qed.

Lemma apply_staged_acc : forall l d, Acc d -> Acc (apply_staged d l).
Proof. induction l as [|[r p] l IH]; intros d H; [exact H|]. rewrite apply_staged_cons_idx_upd. apply IH, idx_step_acc, H. Qed.

Lemma Acc_touched {io} d d' : touched_by io d d' -> Acc d -> Acc d'.
Proof. intros (a & o & _ & _ & ->) H. exact H. Qed.
Lemma maybe_rotate_acc (c : bool) d d1 ev : (if c then db_rotate d else (d, [])) = (d1, ev) -> Acc d -> Acc d1.
Proof. intros Hr H. refine (maybe_rotate_ind Acc c d d1 ev Hr H _). intros d' e Hd. rewrite (db_rotate_inv _ _ _ Hd). exact H. Qed.

Lemma db_append_acc d r d' p evs : Acc d -> db_append d r = (d', p, evs) ->
  d_total d' = d_reclaim d' + live_sum (d_index d') + p_size p.
Proof.
  intros HA H. destruct (db_append_shape _ _ _ _ _ H) as (d1 & ev1 & a & ev2 & Hrot & _ & ->).
  pose proof (maybe_rotate_acc _ _ _ _ Hrot HA) as H1. unfold Acc in H1. cbn. lia.
Qed.

Lemma db_put_acc d k v d' e evs : Acc d -> db_put d k v = (d', e, evs) -> Acc d'.
Proof.
  intros HA H. destruct (db_put_cases _ _ _ _ _ _ H) as [(_ & -> & _)|(_ & _ & d1 & p & Ha & ->)]; [exact HA|].
  exact (idx_upd_acc _ _ _ (db_append_acc _ _ _ _ _ HA Ha)).
Qed.
Lemma db_delete_acc d k d' e evs : Acc d -> db_delete d k = (d', e, evs) -> Acc d'.
Proof.
  intros HA H. destruct (db_delete_cases _ _ _ _ _ H) as [(_ & -> & _)|[(_ & _ & -> & _)|(_ & _ & d1 & p & Ha & -> & _)]]; try exact HA.
  exact (idx_upd_acc _ _ _ (db_append_acc _ _ _ _ _ HA Ha)).
Qed.

Lemma batch_flush_acc d b d' b' evs : Acc d -> batch_flush d b = (d', b', evs) -> Acc d'.
Proof.
  intros HA H. destruct (batch_flush_shape _ _ _ _ _ H) as (_ & d1 & ev1 & a & ps & ev2 & Hrot & _ & ->).
  apply apply_staged_acc. exact (maybe_rotate_acc _ _ _ _ Hrot HA).
Qed.
Lemma batch_flush_rotate_acc d b d' b' evs : Acc d -> batch_flush_rotate d b = (d', b', evs) -> Acc d'.
Proof.
  intros HA H. destruct (batch_flush_rotate_shape _ _ _ _ _ H) as (d1 & ev1 & Hf & ->). exact (batch_flush_acc _ _ _ _ _ HA Hf).
Qed.
Lemma batch_commit_acc d b d' b' e evs : Acc d -> batch_commit d b = (d', b', e, evs) -> Acc d'.
Proof.
  intros HA H.
  destruct (batch_commit_cases _ _ _ _ _ _ H) as [(_ & -> & _)|(_ & _ & _ & [(_ & -> & _)|(_ & d1 & b1 & ev1 & a & p & ev2 & Hf & _ & ->)])];
    try exact HA.
  exact (batch_flush_acc _ _ _ _ _ HA Hf).
Qed.
Lemma run_bops_acc bops d b d' b' rs evs : Acc d -> run_bops d b bops = (d', b', rs, evs) -> Acc d'.
Proof.
  intros HA Hr. refine (proj1 (run_bops_db (fun _ => Acc) _ (fun _ d0 d1 => Acc_touched d0 d1) bops d b d' b' rs evs HA Hr)).
  intros d0 b0 d1 b1 ev. apply batch_flush_rotate_acc.
Qed.

Lemma db_merge_acc d k order d' k' e evs : Acc d -> db_merge d k order = (d', k', e, evs) -> Acc d'.
Proof.
  intros HA H. destruct (db_merge_shape _ _ _ _ _ _ _ H) as (d1 & ev1 & d2 & res & ev5 & Hrot & Hmf & _ & Hres).
  rewrite (db_rotate_inv _ _ _ Hrot) in Hmf.
  pose proof (Acc_touched _ _ (merge_files_touched_by _ _ _ _ _ _ _ _ Hmf) HA) as HA2.
  destruct res as [m|er m]; [|destruct Hres as (-> & _); exact HA2].
  destruct Hres as ((evS & Hs) & _). rewrite db_sync_eq in Hs. injection Hs as <- _. exact HA2.
Qed.

Lemma fold_update_acc : forall (l : list (record * pos)) d,
  Acc d -> Acc (fold_left (fun acc e => update_index acc (r_key (fst e)) (r_type (fst e)) (snd e)) l d).
Proof. induction l as [|[r p] l IH]; intros d H; [exact H|]. cbn [fold_left fst snd]. rewrite update_index_idx_upd. apply IH, idx_step_acc, H. Qed.
Lemma replay_recs_acc : forall rps d te, Acc d -> Acc (fst (replay_recs d te rps)).
Proof.
  induction rps as [|[r p] rps IH]; intros d te HA; cbn [replay_recs fst]; [exact HA|].
  destruct (r_batch r =? 0); [rewrite update_index_idx_upd; apply IH, idx_step_acc, HA|].
  destruct (r_type r =? rt_BatchFinished); [apply IH, fold_update_acc, HA|apply IH, HA].
Qed.
Lemma replay_files_acc : forall files d te from, Acc d -> Acc (fst (replay_files d te files from)).
Proof.
  induction files as [|[id f] files IH]; intros d te from HA; cbn [replay_files fst]; [exact HA|].
  destruct (id <? from); [apply IH, HA|].
  pose proof (replay_recs_acc (lf_recs f) d te HA) as H1.
  destruct (replay_recs d te (lf_recs f)) as [d1 t1]. apply IH. exact H1.
Qed.

Lemma db_open_acc c k d k' evs : k_merge k = None -> db_open c k = (OpenOk d k', evs) -> Acc d /\ k_merge k' = None.
Proof.
  intros Hnm H.
  destruct (db_open_shape _ _ _ _ H) as (k1 & mid & ev1 & d1 & hinted & d3 & t3 & d4 & ev5 & k2 & Hl & Hh & Hrep & Hrot & Hr & Hm).
  unfold load_merge_files in Hl. rewrite Hnm in Hl. injection Hl as <- <- _. injection Hr as <- <-. split; [|congruence].
  injection Hh as <- <-. cbn [d_index d_total d_reclaim] in Hrep. apply (maybe_rotate_acc _ _ _ _ Hrot).
  set (files := map_files (opened (c_io c)) (k_data k)) in *.
  pose proof (replay_files_acc files (open_pick c files [] 0 0) [] (open_from 0 0)) as HA.
  rewrite Hrep in HA. apply HA. unfold open_pick. destruct (split_last _) as [[older [aid af]]|]; reflexivity.
Qed.

Lemma db_close_merge d k k1 ev : db_close d k = (k1, ev) -> k_merge k1 = k_merge k.
Proof. intros H. pose proof (db_close_fst d k) as Hk. rewrite H in Hk. cbn [fst] in Hk. rewrite Hk. reflexivity. Qed.

(* a restart reads no hint file when no finished merge waits; everything else, a merge included, is free *)
Theorem step_acc d k o d' k' r evs :
  Acc d -> no_restart o \/ k_merge k = None -> step (d, k) o = ((d', k'), r, evs) -> Acc d'.
Proof.
  intros HA Hok H. apply step_cases in H. destruct o as [key v|key|key| | | | |sync id bops|order|c].
  - destruct H as (_ & e & Hp & _). exact (db_put_acc _ _ _ _ _ _ HA Hp).
  - destruct H as (_ & v & Hg & _). exact (Acc_touched _ _ (db_get_touched _ _ _ _ _ Hg) HA).
  - destruct H as (_ & e & Hp & _). exact (db_delete_acc _ _ _ _ _ HA Hp).
  - destruct H as (_ & -> & _). exact HA.
  - destruct H as (_ & x & Hf & _). exact (Acc_touched _ _ (db_fold_aux_touched _ _ _ _ _ Hf) HA).
  - destruct H as (_ & -> & _). exact HA.
  - destruct H as (_ & Hs & _). rewrite db_sync_eq in Hs. injection Hs as <- _. exact HA.
  - destruct H as (_ & d1 & b1 & rs & ev1 & b2 & e & ev2 & Hr & Hc & _).
    exact (batch_commit_acc _ _ _ _ _ _ (run_bops_acc _ _ _ _ _ _ _ HA Hr) Hc).
  - destruct H as (e & Hm & _). exact (db_merge_acc _ _ _ _ _ _ _ HA Hm).
  - destruct Hok as [[]|Hnm]. destruct H as (k1 & ev1 & ev2 & Hc & Ho & _).
    rewrite <- (db_close_merge _ _ _ _ Hc) in Hnm. exact (proj1 (db_open_acc _ _ _ _ _ Hnm Ho)).
Qed.

Lemma step_no_merge d k o d' k' r evs :
  op_ok o -> k_merge k = None -> step (d, k) o = ((d', k'), r, evs) -> k_merge k' = None.
Proof.
  intros Hok Hnm H. apply step_cases in H. destruct o as [key v|key|key| | | | |sync id bops|order|c]; try (destruct H as [-> _]; exact Hnm).
  - destruct Hok.
  - destruct H as (k1 & ev1 & ev2 & Hc & Ho & _).
    rewrite <- (db_close_merge _ _ _ _ Hc) in Hnm. exact (proj2 (db_open_acc _ _ _ _ _ Hnm Ho)).
Qed.

Theorem run_acc ops d k s' rs evs :
  Acc d -> k_merge k = None -> Forall op_ok ops -> run (d, k) ops = (s', rs, evs) -> Acc (fst s').
Proof.
  intros HA Hnm Hok Hrun.
  refine (proj1 (run_invariant (fun s => Acc (fst s) /\ k_merge (snd s) = None) op_ok _ ops (d, k) s' rs evs (conj HA Hnm) Hok Hrun)).
  intros [d0 k0] o [d1 k1] r e [A B] Ho Hs. split; [exact (step_acc _ _ _ _ _ _ _ A (or_intror B) Hs)|exact (step_no_merge _ _ _ _ _ _ _ Ho B Hs)].
Qed.

(* with merges, as long as the database is not restarted (adoption is C06) *)
Theorem run_acc_live ops d k s' rs evs :
  Acc d -> Forall no_restart ops -> run (d, k) ops = (s', rs, evs) -> Acc (fst s').
Proof.
  intros HA. apply (run_invariant (fun s => Acc (fst s)) no_restart) with (s := (d, k)); [|exact HA].
  intros [d0 k0] o [d1 k1] r e A Ho Hs. exact (step_acc _ _ _ _ _ _ _ A (or_introl Ho) Hs).
Qed.
