(* EngineSyncMerge.v — the sync invariant (C13) through Merge and through the restart that adopts a merge:
   Merge flushes the file it rotates away from, touches its input files only by reading, and closes
   (hence flushes) every rewritten file before it writes the marker; the adopting Open installs closed,
   flushed files.  At the end: when Merge writes its finished-marker every data file is flushed (C07). *)
From Coq Require Import ZArith Lia ZifyN ZifyNat ZifyBool Sorting.Sorted.
From KV Require Import Bytes GenConsts Chunk Record Engine Script BytesLemmas AMapLemmas
  EngineFiles EngineOps EngineInv EngineRecover EngineSync EngineOpen EngineAdopt EngineKeep EngineMergeRun EngineMergeRace.
Open Scope N_scope.

Definition closedf (x : N * lfile) : Prop := flushed (snd x) /\ lf_phys (snd x) = lf_size (snd x).

(* the files of a finished merge (marker present and non-zero) are closed and flushed *)
Definition MergeFlushed (k : disk) : Prop :=
  match k_merge k with
  | Some md => (exists mid, m_marker md = Some mid /\ mid <> 0) -> Forall closedf (m_files md)
  | None => True
  end.

Lemma db_append_sync_any d r d1 p evs :
  InvF d /\ SyncInv d -> r_batch r = 0 -> db_append d r = (d1, p, evs) -> InvF (idx_upd d1 r p) /\ SyncInv (idx_upd d1 r p).
Proof.
  intros [HF HS] Hb Happ. destruct (db_append_spec _ _ _ _ _ HF Happ) as (HF1 & _).
  destruct (db_append_sync _ _ _ _ _ HF HS Hb Happ) as (HS1 & _). pose proof (idx_upd_index_only d1 r p) as Hio.
  split; [exact (InvF_index_only _ _ Hio HF1)|exact (SyncInv_index_only _ _ Hio HS1)].
Qed.

Lemma run_mops_sync : forall ops d d' evs, InvF d /\ SyncInv d -> run_mops d ops = (d', evs) -> InvF d' /\ SyncInv d'.
Proof.
  induction ops as [|[k v|k] ops IH]; intros d d' evs HFS Hr; cbn [run_mops] in Hr.
  - injection Hr as <- _. exact HFS.
  - destruct (db_put d k v) as [[d1 e1] ev1] eqn:Hp. destruct (run_mops d1 ops) as [d2 ev2] eqn:Hr2. injection Hr as <- _.
    apply (IH d1 d2 ev2); [|exact Hr2].
    destruct (db_put_cases _ _ _ _ _ _ Hp) as [(_ & -> & _)|(_ & _ & da & p & Happ & ->)]; [exact HFS|].
    exact (db_append_sync_any d (mkRec rt_Normal k v 0) da p ev1 HFS eq_refl Happ).
  - destruct (db_delete d k) as [[d1 e1] ev1] eqn:Hp. destruct (run_mops d1 ops) as [d2 ev2] eqn:Hr2. injection Hr as <- _.
    apply (IH d1 d2 ev2); [|exact Hr2].
    destruct (db_delete_cases _ _ _ _ _ Hp) as [(_ & -> & _)|[(_ & _ & -> & _)|(_ & _ & da & p & Happ & -> & _)]]; try exact HFS.
    exact (db_append_sync_any d (mkRec rt_Deleted k [] 0) da p ev1 HFS eq_refl Happ).
Qed.

Lemma scan_touch_sync io d fid f : InvF d /\ SyncInv d -> older_get (d_older d) fid = Some f ->
  InvF (set_older d (older_set (d_older d) fid (fst (scan_touch io (FData fid) f)))) /\
  SyncInv (set_older d (older_set (d_older d) fid (fst (scan_touch io (FData fid) f)))).
Proof.
  intros [HF (A & B & C)] Hg. pose proof (scan_touch_remapped io (FData fid) f) as Hr.
  split; [exact (InvF_touched _ _ (touched_by_older io d fid f _ Hg Hr) HF)|].
  split; [exact A|]. split; [exact B|]. apply older_set_Forall; [exact C|].
  apply (flushed_remapped io f _ Hr). unfold older_flushed in C. rewrite Forall_forall in C. exact (C _ (older_get_some_in _ _ _ Hg)).
Qed.

Theorem db_merge_i_sync d k order pro sched d' k' e evs :
  InvF d -> SyncInv d -> db_merge_i d k order pro sched = (d', k', e, evs) ->
  SyncInv d' /\ MergeFlushed k' /\ (e = None -> flushed (d_active d')).
Proof.
  intros HF HS Hm.
  destruct (db_merge_i_shape _ _ _ _ _ _ _ _ _ Hm) as (d1 & ev1 & d1p & evp & d2 & res & ev5 & Hrot & Hpro & Hmf & _ & Hres).
  destruct (db_rotate_spec d d1 ev1 HF Hrot) as (HF1 & _).
  destruct (db_rotate_sync _ _ _ (proj2 (proj2 HS)) Hrot) as (HS1 & _).
  pose proof (run_mops_sync _ _ _ _ (conj HF1 HS1) Hpro) as Hp.
  destruct (merge_files_i_keeps (fun x => InvF x /\ SyncInv x) (d_cfg d) run_mops_sync (scan_touch_sync (c_io (d_cfg d)))
              _ _ _ _ _ _ _ _ Hp Hmf) as [HF2 HS2].
  unfold MergeFlushed. destruct res as [m|er m].
  - destruct Hres as ((evS & Hsy) & -> & ->). split; [exact (db_sync_sync _ _ _ HF2 HS2 Hsy)|].
    split; [|intros _; exact (db_sync_flushes _ _ _ Hsy)]. cbn [ms_finish m_files]. intros _.
    apply Forall_forall. intros [id f'] Hin. apply in_map_files in Hin. destruct Hin as (f & _ & ->). split; reflexivity.
  - destruct Hres as (-> & -> & ->). split; [exact HS2|]. split; [|discriminate]. intros (mid & Hc & _). discriminate.
Qed.

Theorem db_merge_sync d k order d' k' e evs :
  InvF d -> SyncInv d -> db_merge d k order = (d', k', e, evs) -> SyncInv d' /\ MergeFlushed k'.
Proof.
  intros HF HS Hm. rewrite db_merge_seq in Hm. destruct (db_merge_i_sync _ _ _ _ _ _ _ _ _ HF HS Hm) as (H1 & H2 & _). auto.
Qed.

Lemma files_del_in fs id x : In x (files_del fs id) -> In x fs.
Proof.
  induction fs as [|[i g] fs IH]; cbn [files_del]; [auto|]. destruct (i =? id); [intros H; right; exact H|].
  intros [<-|H]; [left; reflexivity|right; auto].
Qed.

Lemma remove_originals_in : forall fuel data id mid x, In x (fst (remove_originals data fuel id mid)) -> In x data.
Proof.
  induction fuel as [|fuel IH]; intros data id mid x; cbn [remove_originals]; [auto|].
  destruct (mid <=? id); [auto|].
  specialize (IH (files_del data id) (id + 1) mid x).
  destruct (remove_originals (files_del data id) fuel (id + 1) mid) as [d' evs]. cbn [fst] in *.
  intros H. eapply files_del_in. apply IH. exact H.
Qed.
Lemma rename_rewritten_in : forall fuel data mf id n x,
  In x (fst (fst (rename_rewritten data mf fuel id n))) -> In x data \/ In x mf.
Proof.
  induction fuel as [|fuel IH]; intros data mf id n x; cbn [rename_rewritten]; [auto|].
  destruct (n <=? id); [auto|].
  rewrite files_get_eq.
  destruct (older_get mf id) as [g|] eqn:Hg.
  - specialize (IH (older_set data id g) (files_del mf id) (id + 1) n x).
    destruct (rename_rewritten (older_set data id g) (files_del mf id) fuel (id + 1) n) as [[d' m'] evs]. cbn [fst] in *.
    intros H. destruct (IH H) as [H1|H1].
    + destruct (in_older_set _ _ _ _ H1) as [->|H2]; [right; apply older_get_some_in; exact Hg|left; exact H2].
    + right. eapply files_del_in. exact H1.
  - apply IH.
Qed.

Lemma load_merge_files_in k k1 mid ev x :
  load_merge_files k = (k1, mid, ev) -> In x (k_data k1) ->
  In x (k_data k) \/ exists md, k_merge k = Some md /\ m_marker md = Some mid /\ mid <> 0 /\ In x (m_files md).
Proof.
  intros Hload Hin. destruct (k_merge k) as [md|] eqn:Ekm.
  2: { rewrite (load_merge_files_none k Ekm) in Hload. injection Hload as <- _ _. left. exact Hin. }
  destruct (m_marker md) as [m0|] eqn:Emk; [destruct (N.eq_dec m0 0) as [->|Hne]|].
  1,3: destruct (load_merge_files_ignored k md Ekm ltac:(unfold ignored; auto)) as [ev' H]; rewrite H in Hload; injection Hload as <- _ _; left; exact Hin.
  destruct (load_merge_files_adopts k md m0 Ekm Emk Hne) as [ev' H]. cbv zeta in H.
  rewrite Hload in H. apply pair_equal_spec in H. destruct H as [H _]. apply pair_equal_spec in H. destruct H as [-> ->].
  cbn [k_data] in Hin. destruct (0 <? _); [|left; exact Hin].
  destruct (rename_rewritten_in _ _ _ _ _ _ Hin) as [H1|H1]; [left; exact (remove_originals_in _ _ _ _ _ H1)|].
  right. exists md. split; [reflexivity|]. split; [exact Emk|]. split; [exact Hne|exact H1].
Qed.

Definition SyncG (d : db) (k : disk) : Prop := SyncInv d /\ MergeFlushed k.

Lemma load_merge_files_flushed k k1 mid ev : load_merge_files k = (k1, mid, ev) -> MergeFlushed k -> MergeFlushed k1.
Proof.
  intros Hload HF. unfold MergeFlushed in *. destruct (k_merge k) as [md|] eqn:Ekm.
  2: { rewrite (load_merge_files_none k Ekm) in Hload. injection Hload as <- _ _. rewrite Ekm. exact I. }
  destruct (m_marker md) as [m0|] eqn:Emk; [destruct (N.eq_dec m0 0) as [->|Hne]|].
  1,3: destruct (load_merge_files_ignored k md Ekm ltac:(unfold ignored; auto)) as [ev' H]; rewrite H in Hload; injection Hload as <- _ _;
       cbn [k_merge m_marker]; intros (x & [= <-] & Hx); contradiction.
  destruct (load_merge_files_adopts k md m0 Ekm Emk Hne) as [ev' H]. cbv zeta in H.
  rewrite H in Hload. injection Hload as <- _ _. exact I.
Qed.

Lemma db_open_merge c k k1 mid ev1 d k' evs :
  load_merge_files k = (k1, mid, ev1) -> db_open c k = (OpenOk d k', evs) -> k_merge k' = k_merge k1.
Proof.
  intros Hload H. destruct (db_open_shape _ _ _ _ H) as (k1' & mid' & ev1' & d1 & hinted & d3 & t3 & d4 & ev5 & k2 & Hload' & H').
  rewrite Hload in Hload'. injection Hload' as <- _ _. destruct H' as (_ & _ & _ & [= _ <-] & Hm). exact Hm.
Qed.

Lemma step_sync_plain d k M o d' k' r evs :
  plain_op o -> LogInv d M -> SyncG d k -> step (d, k) o = ((d', k'), r, evs) -> SyncG d' k'.
Proof.
  intros Hp HL [HS HF] Hst.
  destruct (step_keep d k o d' k' r evs Hp Hst) as [_ ->]. destruct (plain_op_ok o Hp) as [Hok Hnr].
  split; [exact (step_sync d k M o d' k r evs HL HS (or_introl Hnr) Hok Hst)|exact HF].
Qed.

Theorem step_sync_G d k M o d' k' r evs :
  G d k M -> SyncG d k -> gop_ok d o -> step (d, k) o = ((d', k'), r, evs) -> SyncG d' k'.
Proof.
  intros HG HSG Hok Hst. pose proof HG as [HL HM]. pose proof HSG as [HS HF].
  destruct o as [key v|key|key| | | | |sync id bops|order|c].
  (* the eight plain operations: for them gop_ok d o is, by computation, plain_op o *)
  1-8: (eapply step_sync_plain; [|exact HL|exact HSG|exact Hst]; exact Hok).
  -
    destruct (step_cases _ _ _ _ _ _ _ Hst) as (e & Hm & _). exact (db_merge_sync d k order d' k' e evs (LogInv_InvF _ _ HL) HS Hm).
  - (* Restart: Close leaves closed files, the adopting Open installs closed files *)
    destruct (G_restart d k M c d' k' r evs HG Hst) as [[HL' _] _].
    destruct (step_cases _ _ _ _ _ _ _ Hst) as (k1 & ev1 & ev2 & Hc & Ho & _).
    pose proof (db_close_fst d k) as Hk1. rewrite Hc in Hk1. cbn [fst] in Hk1.
    assert (HF1 : MergeFlushed k1) by (rewrite Hk1; exact HF).
    destruct (load_merge_files k1) as [[k1' mid] evl] eqn:Hload.
    assert (Hcl : Forall closedf (k_data k1')).
    { apply Forall_forall. intros x Hx.
      destruct (load_merge_files_in k1 k1' mid evl x Hload Hx) as [Hin|(md & Hkm & Hmk & Hne & Hin)].
      - rewrite Hk1 in Hin. destruct x as [id f']. apply in_map_files in Hin. destruct Hin as (f & _ & ->). split; reflexivity.
      - unfold MergeFlushed in HF1. rewrite Hkm in HF1.
        exact (proj1 (Forall_forall _ _) (HF1 (ex_intro _ mid (conj Hmk Hne))) x Hin). }
    destruct (db_open_flushed c k1 k1' mid evl d' k' ev2 Hload Hcl Ho) as (Ha & Hof).
    split.
    + exact (SyncInv_flushed d' (proj1 (LogInv_InvF _ _ HL')) Ha Hof).
    + pose proof (load_merge_files_flushed k1 k1' mid evl Hload HF1) as HF2.
      unfold MergeFlushed in *. rewrite (db_open_merge c k1 k1' mid evl d' k' ev2 Hload Ho). exact HF2.
Qed.

Theorem run_sync_G : forall ops d k M s' rs evs,
  G d k M -> SyncG d k -> ops_ok (d, k) ops -> run (d, k) ops = (s', rs, evs) -> SyncG (fst s') (snd s').
Proof.
  induction ops as [|o ops IH]; intros d k M s' rs evs HG HS Hok Hrun; cbn [run] in Hrun.
  - injection Hrun as <- _ _. exact HS.
  - destruct Hok as [Ho Hrest].
    destruct (step (d, k) o) as [[[d1 k1] r] ev1] eqn:Hst. cbn [fst] in Hrest.
    destruct (run (d1, k1) ops) as [[s2 rs2] ev2] eqn:Hr2. injection Hrun as <- _ _.
    destruct (step_G _ _ _ _ _ _ _ _ HG Ho Hst) as (HG1 & _).
    pose proof (step_sync_G _ _ _ _ _ _ _ _ HG HS Ho Hst) as HS1.
    eapply IH; eassumption.
Qed.

(* The files rotated away (by Merge itself, by the racing Put and Delete calls) were flushed at rotation, and Merge
   flushes the active file as its last step before the marker.  Hence every record the scan's liveness tests may
   have relied on (written by racing clients while the scan ran) is durable when the merge output becomes adoptable:
   a power loss after the marker cannot take away a new version whose predecessor the merge has dropped. *)
Theorem db_merge_i_durable d k order pro sched d' k' evs :
  InvF d -> SyncInv d -> db_merge_i d k order pro sched = (d', k', None, evs) ->
  flushed (d_active d') /\ older_flushed d'.
Proof.
  intros HF HS Hm. destruct (db_merge_i_sync _ _ _ _ _ _ _ _ _ HF HS Hm) as (HS' & _ & Hfl).
  split; [exact (Hfl eq_refl)|exact (proj2 (proj2 HS'))].
Qed.

Theorem db_merge_durable d k order d' k' evs :
  InvF d -> SyncInv d -> db_merge d k order = (d', k', None, evs) ->
  flushed (d_active d') /\ older_flushed d'.
Proof. rewrite db_merge_seq. apply db_merge_i_durable. Qed.
