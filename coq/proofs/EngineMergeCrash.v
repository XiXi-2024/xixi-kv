(* EngineMergeCrash.v — a crash while Merge is running, or while a finished merge is being adopted
   by Open, loses nothing and resurrects nothing; a crash inside the removal of a left-over merge
   directory (on the file-system model of Crash.v) leaves a directory that Open ignores (C07). *)
From Coq Require Import ZArith Lia ZifyN ZifyNat ZifyBool Sorting.Sorted.
From KV Require Import Bytes GenConsts Chunk Record Engine Script Crash BytesLemmas AMapLemmas
  EngineFiles EngineLog EngineRecover EngineCrash EngineOpen EngineKeep EngineMergeRun.
Open Scope N_scope.

Definition crash_files (d : db) (cuts : N -> lfile -> N) (cutA : N) : list (N * lfile) :=
  map (fun x => (fst x, lf_crash (snd x) (cuts (fst x) (snd x)))) (d_older d) ++ [(d_active_id d, lf_crash (d_active d) cutA)].

Lemma crash_files_data d cuts cutA : crash_files d cuts cutA = k_data (crash_disk_of d cuts cutA).
Proof. reflexivity. Qed.

Lemma crash_older_orecs cuts x : forall l, (forall id f, In (id, f) l -> wf_lfile f /\ lf_size f <= cuts id f) ->
  orecs (map (fun y => (fst y, lf_crash (snd y) (cuts (fst y) (snd y)))) l) x = orecs l x.
Proof.
  unfold orecs. induction l as [|[i g] l IH]; intros H; [reflexivity|]. cbn [map fst snd older_get].
  destruct (i =? x); [|apply IH; intros id f Hx; apply H; right; exact Hx].
  destruct (H i g (or_introl eq_refl)) as [Hwf Hle]. unfold file_log, lf_crash. cbv zeta. cbn [lf_recs].
  rewrite (recs_upto_size g (cuts i g) Hwf Hle). reflexivity.
Qed.

Lemma crash_files_ok d m cuts cutA :
  LogInv d m -> (forall id f, In (id, f) (d_older d) -> lf_size f <= cuts id f) ->
  asc (crash_files d cuts cutA) /\ Forall file_ok (crash_files d cuts cutA) /\
  files_log (crash_files d cuts cutA) = surviving_log d cutA /\
  (forall mid x, mid <= d_active_id d -> x < mid -> orecs (crash_files d cuts cutA) x = orecs (d_older d) x).
Proof.
  intros HL Hcuts. destruct (crash_disk_ok d m cuts cutA HL Hcuts) as [(_ & Hasc & Hok) Hlog].
  rewrite <- crash_files_data in Hasc, Hok, Hlog. split; [exact Hasc|]. split; [exact Hok|]. split; [exact Hlog|].
  pose proof (LogInv_InvO _ _ HL) as HO. unfold InvO in HO.
  set (olderc := map (fun y => (fst y, lf_crash (snd y) (cuts (fst y) (snd y)))) (d_older d)).
  assert (Hids : ids_below olderc (d_active_id d)) by (apply (ids_below_ids _ (d_older d)); [unfold olderc; rewrite map_map; reflexivity|exact HO]).
  intros mid x Hmid Hx. unfold crash_files. fold olderc.
  rewrite <- (older_set_append olderc (d_active_id d) _ Hids), orecs_set_other by lia.
  apply crash_older_orecs. intros id f Hin. split; [|exact (Hcuts id f Hin)].
  exact (proj1 (proj2 (LogInv_InvF _ _ HL) id f (asc_get_in _ _ _ (ids_below_asc _ _ HO) Hin))).
Qed.

(* a crash while Merge is running (no marker yet: the merge directory may hold anything), the unsynced
   tail of the active file cut anywhere: Open recovers what the surviving log denotes and ignores the
   merge directory *)
Theorem crash_during_merge d M cuts cutA c hint md :
  LogInv d M -> (forall id f, In (id, f) (d_older d) -> lf_size f <= cuts id f) -> ignored md ->
  exists d' k' evs, db_open c (mkDisk (crash_files d cuts cutA) hint (Some md)) = (OpenOk d' k', evs) /\
    LogOK d' (fst (sreplay [] [] (surviving_log d cutA))) /\
    (lf_size (d_active d) <= cutA -> LogInv d' M) /\
    (exists md', k_merge k' = Some md' /\ ignored md').
Proof.
  intros HL Hcuts Hig. destruct (crash_files_ok d M cuts cutA HL Hcuts) as (Hasc & Hok & Hlog & _).
  destruct (load_merge_files_ignored (mkDisk (crash_files d cuts cutA) hint (Some md)) md eq_refl Hig) as [ev Hload].
  destruct (db_open_general c _ _ 0 ev Hload Hasc Hok (or_introl eq_refl)) as (d1 & k2 & ev2 & Ho & HLO & Hlog' & _ & Hk2).
  cbn [k_data k_merge] in *. rewrite Hlog in HLO, Hlog'.
  exists d1, k2, ev2. split; [exact Ho|]. split; [exact HLO|]. split; [|eexists; split; [exact Hk2|right; reflexivity]].
  intros Hfull. rewrite (surviving_all d M cutA HL Hfull) in HLO, Hlog'. rewrite (LogInv_sreplay _ _ HL) in HLO.
  split; [exact HLO|]. rewrite Hlog', (LogInv_sreplay _ _ HL). reflexivity.
Qed.

(* a crash after Merge has finished (marker written), without loss of bytes: the crash image of a state
   with a pending merge; open_pending covers the directory states of an interrupted adoption *)
Theorem crash_with_finished_merge d k M cuts cutA c :
  G d k M -> (forall id f, In (id, f) (d_older d) -> lf_size f <= cuts id f) -> lf_size (d_active d) <= cutA ->
  forall md, k_merge k = Some md -> ~ ignored md ->
  exists d' k' evs, db_open c (mkDisk (crash_files d cuts cutA) (k_hint k) (Some md)) = (OpenOk d' k', evs) /\
    LogInv d' M /\ k_merge k' = None.
Proof.
  intros [HL HM] Hcuts Hfull md Hkm Hnig. unfold MergeState in HM. rewrite Hkm in HM.
  destruct HM as [Hig|(mid & M0 & OL & PL & Hmd & Hpos & Hle & Hlogd & Hlo & Hsr)]; [contradiction|].
  destruct (crash_files_ok d M cuts cutA HL Hcuts) as (Hasc & Hok & Hlog & Hor).
  rewrite (surviving_all d M cutA HL Hfull) in Hlog.
  exact (open_finished c d M md (k_hint k) _ mid M0 OL PL Hmd Hpos Hlogd Hlo Hsr Hasc Hok Hlog (fun x Hx => Hor mid x Hle Hx)).
Qed.

(* Merge removes the finished-marker of a left-over directory first, then the directory.  os.RemoveAll
   unlinks entry by entry: whichever entries are already gone when the process dies, what is left has no
   marker and is ignored by Open (crash_during_merge applies to it). *)
Lemma remove_marker_clears s : fs_marker (fs_apply s (EvRemove MMarker)) = None.
Proof. reflexivity. Qed.

Lemma partial_removal_is_ignored s gone m :
  fs_marker s = None ->
  match k_merge (fs_to_disk (fs_partial_rm s gone) m) with Some md => ignored md | None => True end.
Proof.
  intros Hm. unfold fs_to_disk, fs_partial_rm. cbn [fs_merge fs_marker k_merge].
  destruct (fs_merge s); [|exact I]. left. cbn [m_marker]. rewrite Hm. destruct (gone MMarker); reflexivity.
Qed.

Lemma partial_removal_keeps_data s gone m :
  k_data (fs_to_disk (fs_partial_rm s gone) m) = k_data (fs_to_disk s m) /\
  k_hint (fs_to_disk (fs_partial_rm s gone) m) = k_hint (fs_to_disk s m).
Proof.
  unfold fs_to_disk, fs_partial_rm. cbn [k_data k_hint fs_files fs_hints]. split.
  - f_equal. induction (fs_files s) as [|[nm f] l IH]; [reflexivity|]. cbn [filter fst].
    destruct nm; cbn [in_merge_dir andb negb data_files]; try (rewrite IH; reflexivity);
      destruct (gone _); cbn [negb data_files]; exact IH.
  - induction (fs_hints s) as [|[nm h] l IH]; [reflexivity|]. cbn [filter fst].
    destruct nm; cbn [in_merge_dir andb negb fget fname_eqb]; try exact IH; try reflexivity;
      destruct (gone _); cbn [negb fget fname_eqb]; try exact IH; reflexivity.
Qed.

Lemma merge_removes_marker_first d k order md :
  k_merge k = Some md ->
  exists pre post, snd (db_merge d k order) = pre ++ [EvRemove MMarker; EvRemoveAllMerge; EvMkdirMerge] ++ post /\
                   pre = snd (db_rotate d).
Proof.
  intros Hm. unfold db_merge. rewrite Hm. destruct (db_rotate d) as [d1 ev1]. cbn [snd].
  destruct (h_open (c_io (d_cfg d)) (MData 0) false lf_empty) as [a0 ev3].
  destruct (hf_open_new (c_io (d_cfg d))) as [h0 ev4].
  destruct (merge_files (d_cfg d) d1 order (d_active_id d1) (mkMs 0 a0 [] h0)) as [[d2 res] ev5].
  destruct res as [m|e m].
  - destruct (hf_close (c_io (d_cfg d)) (ms_hint m)) as [h1 ev6].
    destruct (h_close (c_io (d_cfg d)) (MData (ms_active_id m)) (ms_active m)) as [a1 ev7].
    destruct (ms_close_older (c_io (d_cfg d)) (ms_older m)) as [o1 ev8].
    destruct (db_sync d2) as [d3 evS]. cbn [snd].
    eexists ev1, _. split; [|reflexivity]. rewrite <- ?app_assoc. cbn [app]. reflexivity.
  - cbn [snd]. eexists ev1, _. split; [|reflexivity]. rewrite <- ?app_assoc. cbn [app]. reflexivity.
Qed.
