(* FileShift.v — the writer does not depend on how many whole blocks precede it: a data file that
   begins with k blocks of arbitrary content behaves, for every history of writes, flushes and
   reopens, like the same history at offset 0 with every block id shifted by k.  (k is an
   unbounded N: 131072 blocks = 4 GiB is one instance.) *)
From Coq Require Import ZArith Lia ZifyN ZifyNat ZifyBool List.
From KV Require Import Bytes GenConsts Chunk BytesLemmas ChunkProofs.
Import ListNotations.
Open Scope N_scope.

Definition shift_pos (k : N) (p : pos) : pos := mkPos (p_fid p) (p_bid p + k) (p_off p) (p_size p).
Definition shift_df (k : N) (pre : bytes) (f : dfile) : dfile :=
  mkDf (df_id f) (pre ++ df_bytes f) (df_bid f + k) (df_bsz f) (df_staged f).

Lemma frame_shift fid bid bsz n k :
  frame fid (bid + k) bsz n =
    let '(p, b, s) := frame fid bid bsz n in (shift_pos k p, b + k, s).
Proof.
  unfold frame, shift_pos. cbn [p_fid p_bid p_off p_size].
  (* the block id enters frame only as a summand of the block ids it returns *)
  destruct (pad_len bsz =? 0).
  - set (q := _ / blockSize). replace (bid + k + q) with (bid + q + k) by lia. reflexivity.
  - set (q := _ / blockSize). replace (bid + k + 1) with (bid + 1 + k) by lia.
    replace (bid + 1 + k + q) with (bid + 1 + q + k) by lia. reflexivity.
Qed.

Section WithCrc.
Variable crc : bytes -> N.

Lemma df_write_shift k pre f d :
  df_write crc (shift_df k pre f) d =
    let '(f', p) := df_write crc f d in (shift_df k pre f', shift_pos k p).
Proof.
  unfold df_write, shift_df. cbn [df_id df_bid df_bsz df_bytes df_staged].
  rewrite frame_shift. destruct (frame (df_id f) (df_bid f) (df_bsz f) (len d)) as [[p b] s].
  cbn [df_id df_bid df_bsz df_bytes df_staged]. rewrite app_assoc. reflexivity.
Qed.

Lemma write_all_buf_shift k fid recs : forall bid bsz,
  write_all_buf crc fid (bid + k) bsz recs =
    let '(bs, ps, b, s) := write_all_buf crc fid bid bsz recs in (bs, map (shift_pos k) ps, b + k, s).
Proof.
  induction recs as [|d r IH]; intros bid bsz; cbn [write_all_buf map]; [reflexivity|].
  rewrite frame_shift. destruct (frame fid bid bsz (len d)) as [[p b] s].
  rewrite IH. destruct (write_all_buf crc fid b s r) as [[[bs ps] b2] s2]. reflexivity.
Qed.

Lemma df_flush_shift k pre f :
  df_flush crc (shift_df k pre f) =
    let '(f', ps) := df_flush crc f in (shift_df k pre f', map (shift_pos k) ps).
Proof.
  unfold df_flush, shift_df. cbn [df_id df_bid df_bsz df_bytes df_staged].
  rewrite write_all_buf_shift.
  destruct (write_all_buf crc (df_id f) (df_bid f) (df_bsz f) (df_staged f)) as [[[bs ps] b] s].
  cbn [df_id df_bid df_bsz df_bytes df_staged]. rewrite app_assoc. reflexivity.
Qed.

Lemma df_open_shift k pre id content : len pre = k * blockSize ->
  df_open id (pre ++ content) = shift_df k pre (df_open id content).
Proof.
  intros H. unfold df_open, shift_df. cbn [df_id df_bid df_bsz df_bytes df_staged].
  rewrite len_app, H. pose proof blockSize_val as Hb.
  f_equal.
  - rewrite N.add_comm, N.div_add by lia. lia.
  - rewrite N.add_comm, N.mod_add by lia. reflexivity.
Qed.

Definition shift_out (k : N) (out : list (bytes * pos)) : list (bytes * pos) :=
  map (fun dp => (fst dp, shift_pos k (snd dp))) out.

Lemma combine_shift k (ds : list bytes) : forall ps,
  combine ds (map (shift_pos k) ps) = shift_out k (combine ds ps).
Proof.
  induction ds as [|d ds IH]; intros [|p ps]; cbn; try reflexivity. rewrite IH. reflexivity.
Qed.

Theorem df_run_shift k pre : len pre = k * blockSize -> forall ops f,
  df_run crc (shift_df k pre f) ops =
    (shift_df k pre (fst (df_run crc f ops)), shift_out k (snd (df_run crc f ops))).
Proof.
  intros Hpre. induction ops as [|o ops IH]; intros f; [reflexivity|].
  destruct o as [d|d| | |]; cbn [df_run].
  - rewrite df_write_shift. destruct (df_write crc f d) as [f1 p].
    rewrite IH. destruct (df_run crc f1 ops) as [f2 out]. reflexivity.
  - change (df_stage (shift_df k pre f) d) with (shift_df k pre (df_stage f d)). apply IH.
  - rewrite df_flush_shift. cbn [shift_df df_staged]. destruct (df_flush crc f) as [f1 ps].
    rewrite IH. destruct (df_run crc f1 ops) as [f2 out]. cbn [fst snd].
    unfold shift_out at 2. rewrite map_app. rewrite combine_shift. reflexivity.
  - cbn [shift_df df_id df_bytes]. rewrite (df_open_shift k pre _ _ Hpre). apply IH.
  - change (df_refuse (shift_df k pre f)) with (shift_df k pre (df_refuse f)). apply IH.
Qed.

Corollary df_run_far k pre fid ops : len pre = k * blockSize ->
  df_run crc (df_open fid pre) ops =
    (shift_df k pre (fst (df_run crc (df_open fid []) ops)),
     shift_out k (snd (df_run crc (df_open fid []) ops))).
Proof.
  intros H. rewrite <- (app_nil_r pre) at 1. rewrite (df_open_shift k pre fid [] H).
  apply df_run_shift, H.
Qed.

End WithCrc.
