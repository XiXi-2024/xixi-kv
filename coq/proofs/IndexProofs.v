(* IndexProofs.v — the sharded iterator refines a cursor into the ordered snapshot (C10). *)
From Coq Require Import ZArith Lia Sorting.Sorted Sorting.Permutation.
From KV Require Import Bytes Chunk Engine Index BytesLemmas AMapLemmas ListLemmas.

Section Iter.
Variable rev : bool.

Notation kb := (key_before rev).
Definition before (a b : bytes) : Prop := kb a b = true.

Lemma kb_irrefl a : kb a a = false.
Proof. unfold key_before. destruct rev; apply bytes_ltb_irrefl. Qed.
Lemma kb_trans a b c : kb a b = true -> kb b c = true -> kb a c = true.
Proof. unfold key_before. destruct rev; intros H1 H2; eapply bytes_ltb_trans; eassumption. Qed.
Lemma kb_total a b : kb a b = false -> a <> b -> kb b a = true.
Proof.
  unfold key_before. intros H Hne. destruct rev; (apply bytes_ltb_total; [exact H|]); apply bytes_eqb_neq; congruence.
Qed.
Lemma kb_asym a b : kb a b = true -> kb b a = false.
Proof. intros H. destruct (kb b a) eqn:E; [|reflexivity]. pose proof (kb_trans _ _ _ H E) as H2. rewrite kb_irrefl in H2. discriminate. Qed.

(* cuts: the part of the order that is still ahead *)
Inductive cut := CAll | CGe (t : bytes) | CGt (k : bytes).
Definition in_cut (c : cut) (k : bytes) : bool :=
  match c with CAll => true | CGe t => at_or_after rev t k | CGt x => kb x k end.
Definition inc (c : cut) (x : bytes * pos) : bool := in_cut c (fst x).

Lemma in_cut_up c a b : in_cut c a = true -> kb a b = true -> in_cut c b = true.
Proof.
  destruct c as [|t|k]; cbn [in_cut]; [reflexivity| |apply kb_trans].
  unfold at_or_after. intros H1 H2. destruct (kb b t) eqn:E; [|reflexivity].
  rewrite (kb_trans _ _ _ H2 E) in H1. discriminate.
Qed.

Lemma in_cut_passed c a b : in_cut c a = true -> in_cut c b = false -> kb b a = true.
Proof.
  intros Ha Hb. destruct (kb b a) eqn:E; [reflexivity|].
  rewrite (in_cut_up c a b Ha) in Hb; [discriminate|]. apply kb_total; [exact E|]. intros ->. congruence.
Qed.

Definition ordered (l : list (bytes * pos)) : Prop := StronglySorted (fun a b => kb (fst a) (fst b) = true) l.

Lemma ordered_inv x l : ordered (x :: l) -> ordered l /\ forall y, In y l -> kb (fst x) (fst y) = true.
Proof. intros H. inversion H; subst. rewrite <- Forall_forall. auto. Qed.
Lemma ordered_filter (q : bytes * pos -> bool) l : ordered l -> ordered (filter q l).
Proof. apply StronglySorted_filter. Qed.
Lemma ordered_app a b : ordered (a ++ b) <->
  ordered a /\ ordered b /\ forall x y, In x a -> In y b -> kb (fst x) (fst y) = true.
Proof. apply StronglySorted_app. Qed.

Lemma ordered_least l x : ordered l -> In x l -> (forall y, In y l -> kb (fst y) (fst x) = false) -> hd_error l = Some x.
Proof.
  intros Ho Hx Hmin. destruct l as [|h t]; [destruct Hx|]. destruct Hx as [->|Hx]; [reflexivity|].
  pose proof (proj2 (ordered_inv _ _ Ho) x Hx). pose proof (Hmin h (or_introl eq_refl)). congruence.
Qed.

Lemma filter_cut_all c x l : ordered (x :: l) -> inc c x = true -> filter (inc c) (x :: l) = x :: l.
Proof.
  intros Ho Hx. apply filter_all_true. intros y [<-|Hy]; [exact Hx|].
  exact (in_cut_up c _ _ Hx (proj2 (ordered_inv _ _ Ho) y Hy)).
Qed.
Lemma cut_split c l : ordered l -> exists p, l = p ++ filter (inc c) l /\ forall y, In y p -> inc c y = false.
Proof.
  induction l as [|x l IH]; intros Ho; [exists []; split; [reflexivity|intros y []]|].
  destruct (inc c x) eqn:E.
  - exists []. rewrite (filter_cut_all c x l Ho E). split; [reflexivity|intros y []].
  - destruct (IH (proj1 (ordered_inv _ _ Ho))) as (p & Hp & Hout). exists (x :: p). cbn [filter app]. rewrite E.
    split; [f_equal; exact Hp|]. intros y [<-|Hy]; [exact E|exact (Hout y Hy)].
Qed.

Lemma cut_next c l x r : ordered l -> filter (inc c) l = x :: r -> filter (inc (CGt (fst x))) l = r.
Proof.
  intros Ho E. destruct (cut_split c l Ho) as (p & Hp & _). rewrite E in Hp. subst l.
  apply ordered_app in Ho. destruct Ho as (_ & Hxr & Hpx). rewrite filter_app. cbn [filter]. unfold inc at 2. cbn [in_cut].
  rewrite kb_irrefl, (filter_all_false _ p), (filter_all_true _ r); [reflexivity|exact (proj2 (ordered_inv _ _ Hxr))|].
  intros y Hy. unfold inc. cbn [in_cut]. apply kb_asym. apply Hpx; [exact Hy|left; reflexivity].
Qed.
Lemma skipn_search t l : ordered l -> skipn (search rev t l) l = filter (inc (CGe t)) l.
Proof.
  induction l as [|x l IH]; intros Ho; [reflexivity|]. cbn [search].
  destruct (at_or_after rev t (fst x)) eqn:E.
  - symmetry. apply (filter_cut_all (CGe t)); assumption.
  - cbn [skipn filter]. unfold inc at 1. cbn [in_cut]. rewrite E. apply IH. exact (proj1 (ordered_inv _ _ Ho)).
Qed.

Definition s_rem (s : sit) : list (bytes * pos) := skipn (s_cur s) (s_vals s).
Definition SInv (c : cut) (s : sit) : Prop :=
  ordered (s_vals s) /\ s_vals s <> [] /\ s_rem s = filter (inc c) (s_vals s).

Lemma s_valid_rem s : s_valid s = true <-> s_rem s <> [].
Proof.
  unfold s_valid, s_rem. rewrite Nat.ltb_lt. split.
  - intros H E. apply (f_equal (@length _)) in E. rewrite skipn_length in E. cbn [length] in E. lia.
  - intros H. destruct (Nat.lt_ge_cases (s_cur s) (length (s_vals s))) as [Hl|Hg]; [exact Hl|]. exfalso. apply H. apply skipn_all2. exact Hg.
Qed.
Lemma s_invalid_rem s : s_valid s = false -> s_rem s = [].
Proof. intros H. destruct (s_rem s) eqn:E; [reflexivity|]. assert (Hv : s_valid s = true) by (apply s_valid_rem; rewrite E; discriminate). congruence. Qed.
Lemma s_rem_head s x r : s_rem s = x :: r -> s_head s = Some x.
Proof. intros E. unfold s_head. rewrite <- hd_error_skipn. fold (s_rem s). rewrite E. reflexivity. Qed.

Lemma s_vals_rewind s : s_vals (s_rewind s) = s_vals s.
Proof. unfold s_rewind. destruct (s_kind s); try reflexivity. destruct (Nat.eqb _ _); reflexivity. Qed.
Lemma s_rem_rewind s : s_rem (s_rewind s) = s_vals s.
Proof.
  unfold s_rewind, s_rem. destruct (s_kind s); try reflexivity. destruct (Nat.eqb (length (s_vals s)) 0) eqn:E; [|reflexivity].
  apply Nat.eqb_eq, length_zero_iff_nil in E. rewrite E. apply skipn_nil.
Qed.
Lemma s_vals_seek t s : s_vals (s_seek rev t s) = s_vals s.
Proof. unfold s_seek. destruct (s_kind s); try reflexivity. destruct (s_valid s); reflexivity. Qed.
Lemma s_rem_seek t s : s_valid s = true -> s_rem (s_seek rev t s) = skipn (search rev t (s_vals s)) (s_vals s).
Proof. intros Hv. unfold s_seek. rewrite Hv. destruct (s_kind s); reflexivity. Qed.
Lemma s_vals_next s : s_vals (s_next s) = s_vals s.
Proof. unfold s_next. destruct (s_kind s); try reflexivity. destruct (s_valid s); reflexivity. Qed.
Lemma s_rem_next s : s_valid s = true -> s_rem (s_next s) = tl (s_rem s).
Proof. intros Hv. unfold s_next. rewrite Hv. destruct (s_kind s); apply skipn_S_tl. Qed.

Lemma SInv_rewind c s : SInv c s -> SInv CAll (s_rewind s) /\ s_valid (s_rewind s) = true.
Proof.
  intros (Ho & Hne & _). split.
  - unfold SInv. rewrite s_rem_rewind, s_vals_rewind. split; [exact Ho|]. split; [exact Hne|].
    symmetry. apply filter_all_true. reflexivity.
  - apply s_valid_rem. rewrite s_rem_rewind. exact Hne.
Qed.
Lemma SInv_seek c t s : SInv c s -> s_valid s = true -> SInv (CGe t) (s_seek rev t s).
Proof.
  intros (Ho & Hne & _) Hv. unfold SInv. rewrite (s_rem_seek t s Hv), s_vals_seek.
  split; [exact Ho|]. split; [exact Hne|]. apply skipn_search. exact Ho.
Qed.
Lemma SInv_next c s x r : SInv c s -> s_rem s = x :: r -> SInv (CGt (fst x)) (s_next s) /\ s_rem (s_next s) = r.
Proof.
  intros (Ho & Hne & Hr) E. assert (Hv : s_valid s = true) by (apply s_valid_rem; rewrite E; discriminate).
  assert (Er : s_rem (s_next s) = r) by (rewrite (s_rem_next s Hv), E; reflexivity).
  split; [|exact Er]. unfold SInv. rewrite Er, s_vals_next. split; [exact Ho|]. split; [exact Hne|].
  symmetry. apply (cut_next c); [exact Ho|]. rewrite <- Hr. exact E.
Qed.
Lemma SInv_shrink c c' s : SInv c s ->
  (forall y, In y (s_vals s) -> inc c' y = true -> inc c y = true) ->
  (forall y, In y (s_rem s) -> inc c' y = true) -> SInv c' s.
Proof.
  intros (Ho & Hne & Hr) Hsub Hall. split; [exact Ho|]. split; [exact Hne|].
  rewrite <- (filter_filter_sub (inc c') (inc c)) by exact Hsub. rewrite <- Hr. symmetry. apply filter_all_true. exact Hall.
Qed.

Lemma rems_filter c l : Forall (SInv c) l -> flat_map s_rem l = filter (inc c) (flat_map s_vals l).
Proof. induction 1 as [|s l (_ & _ & Hr) _ IH]; [reflexivity|]. cbn [flat_map]. rewrite filter_app, <- Hr, IH. reflexivity. Qed.
Lemma rems_invalid l : Forall (fun s => s_valid s = false) l -> flat_map s_rem l = [].
Proof. induction 1 as [|s l Hv _ IH]; [reflexivity|]. cbn [flat_map]. rewrite (s_invalid_rem s Hv). exact IH. Qed.
Lemma vals_map (g : sit -> sit) l : (forall s, s_vals (g s) = s_vals s) -> flat_map s_vals (map g l) = flat_map s_vals l.
Proof. intros Hg. induction l as [|s l IH]; [reflexivity|]. cbn [map flat_map]. rewrite Hg, IH. reflexivity. Qed.

(* the minimum of the live cursors (heap.items[0]) and its removal (heap.Pop): no head comes before
   the head of the minimum, and the list is the minimum and the rest *)
Lemma min_live_spec l :
  match min_live rev l with
  | None => l = []
  | Some m => Permutation l (m :: remove_min rev l) /\
      forall s a b, In s l -> s_head s = Some a -> s_head m = Some b -> kb (fst a) (fst b) = false
  end.
Proof.
  induction l as [|s0 l IH]; [reflexivity|]. cbn [min_live remove_min]. destruct (min_live rev l) as [m0|].
  2:{ subst l. split; [apply Permutation_refl|]. intros s a b [<-|[]] Ha Hb. replace b with a by congruence. apply kb_irrefl. }
  destruct IH as [Hp Hl].
  assert (Hswap : Permutation (s0 :: l) (m0 :: s0 :: remove_min rev l)).
  { eapply perm_trans; [apply perm_skip; exact Hp|apply perm_swap]. }
  destruct (s_head s0) as [a0|] eqn:E1, (s_head m0) as [b0|] eqn:E2; [destruct (kb (fst a0) (fst b0)) eqn:E| | |].
  2-5: split; [exact Hswap|]; intros s a b [<-|Hs] Ha Hb; [congruence|apply (Hl s a b Hs Ha); congruence].
  split; [apply Permutation_refl|]. intros s a b [<-|Hs] Ha Hb; [replace b with a by congruence; apply kb_irrefl|].
  replace b with a0 by congruence. pose proof (Hl s a b0 Hs Ha eq_refl) as Hn.
  destruct (kb (fst a) (fst a0)) eqn:E3; [|reflexivity]. rewrite (kb_trans _ _ _ E3 E) in Hn. discriminate.
Qed.

End Iter.

Inductive iop := IRewind | ISeek (t : bytes) | INext.

Definition di_step (d : dbit) (o : iop) : dbit :=
  match o with IRewind => di_rewind d | ISeek t => di_seek d t | INext => di_next d end.
Definition di_obs (d : dbit) : bool * option (bytes * pos) := (di_valid d, di_cur d).
Fixpoint di_run (d : dbit) (ops : list iop) : list (bool * option (bytes * pos)) :=
  match ops with [] => [] | o :: r => let d' := di_step d o in di_obs d' :: di_run d' r end.

(* the reference iterator: the ordered, prefix-filtered snapshot [L] and a cut *)
Definition robs (rev : bool) (L : list (bytes * pos)) (c : cut) : option (bytes * pos) := hd_error (filter (inc rev c) L).
Definition rstep (rev : bool) (L : list (bytes * pos)) (c : cut) (o : iop) : cut :=
  match o with
  | IRewind => CAll
  | INext => match robs rev L c with Some x => CGt (fst x) | None => c end
  | ISeek t => match robs rev L c with Some _ => CGe t | None => c end
  end.
Definition r_obs (rev : bool) (L : list (bytes * pos)) (c : cut) : bool * option (bytes * pos) :=
  (match robs rev L c with Some _ => true | None => false end, robs rev L c).
Fixpoint rrun (rev : bool) (L : list (bytes * pos)) (c : cut) (ops : list iop) : list (bool * option (bytes * pos)) :=
  match ops with [] => [] | o :: r => let c' := rstep rev L c o in r_obs rev L c' :: rrun rev L c' r end.
(* every Seek target lies at or ahead of the cursor in iteration order *)
Fixpoint legal (rev : bool) (L : list (bytes * pos)) (c : cut) (ops : list iop) : Prop :=
  match ops with
  | [] => True
  | o :: r =>
    (match o with ISeek t => forall x, robs rev L c = Some x -> key_before rev t (fst x) = false | _ => True end) /\
    legal rev L (rstep rev L c o) r
  end.

Section Sharded.
Variable rev : bool.
Notation kb := (key_before rev).
Notation ordered := (ordered rev).
Notation inc := (inc rev).
Notation SInv := (SInv rev).

Variable S : list (bytes * pos).   (* the snapshot, in iteration order; nat's successor is Datatypes.S from here on *)
Hypothesis HS : ordered S.

Definition spec_rem (c : cut) : list (bytes * pos) := filter (inc c) S.

Lemma ordered_keys_inj x y : In x S -> In y S -> fst x = fst y -> x = y.
Proof.
  clear - HS. induction S as [|z l IH]; intros Hx Hy Hk; [destruct Hx|]. destruct (ordered_inv rev _ _ HS) as [H1 H2].
  destruct Hx as [->|Hx]; destruct Hy as [->|Hy]; auto.
  - pose proof (H2 _ Hy) as H. rewrite Hk, (kb_irrefl rev) in H. discriminate.
  - pose proof (H2 _ Hx) as H. rewrite <- Hk, (kb_irrefl rev) in H. discriminate.
Qed.

(* The iterators, live and parked, hold a partition of the snapshot, and each stands where the cut
   says.  Nothing more is needed: which key went to which shard plays no role. *)
Definition Rel (it : iit) (c : cut) : Prop :=
  i_rev it = rev /\ Permutation (flat_map s_vals (i_live it ++ i_old it)) S /\
  Forall (fun s => s_valid s = true) (i_live it) /\ Forall (fun s => s_valid s = false) (i_old it) /\
  Forall (SInv c) (i_live it ++ i_old it).

Lemma rel_rems it c : Rel it c -> Permutation (flat_map s_rem (i_live it)) (spec_rem c).
Proof.
  intros (_ & Hp & _ & Ho & Hs). apply (rems_filter rev) in Hs. rewrite flat_map_app, (rems_invalid _ Ho), app_nil_r in Hs.
  rewrite Hs. apply Permutation_filter. exact Hp.
Qed.

Theorem rel_valid it c : Rel it c -> i_valid it = negb (match spec_rem c with [] => true | _ => false end).
Proof.
  intros HR. pose proof (rel_rems it c HR) as Hp. destruct HR as (_ & _ & Hl & _). unfold i_valid.
  destruct (i_live it) as [|s l].
  - apply Permutation_nil in Hp. rewrite Hp. reflexivity.
  - pose proof (Forall_inv Hl) as Hv. apply s_valid_rem in Hv. cbn [flat_map] in Hp.
    destruct (spec_rem c); [|reflexivity]. apply Permutation_sym, Permutation_nil, app_eq_nil in Hp. tauto.
Qed.

(* the minimum of the live heads is the head of the remainder: every element z of the remainder is
   held by a live iterator whose head is z or precedes z, and no head precedes the minimum *)
Theorem rel_cur it c : Rel it c -> i_cur it = hd_error (spec_rem c).
Proof.
  intros HR. pose proof (rel_rems it c HR) as Hp. destruct HR as (Hrev & _ & Hl & _ & Hs). unfold i_cur. rewrite Hrev.
  pose proof (min_live_spec rev (i_live it)) as Hmin. destruct (min_live rev (i_live it)) as [m|].
  2:{ rewrite Hmin in Hp. apply Permutation_nil in Hp. rewrite Hp. reflexivity. }
  destruct Hmin as [Hpm Hmin]. pose proof (Permutation_in _ (Permutation_sym Hpm) (or_introl eq_refl)) as Hm.
  rewrite Forall_forall in Hl, Hs.
  pose proof (Hl m Hm) as Hv. apply s_valid_rem in Hv. destruct (s_rem m) as [|y ry] eqn:Ey; [contradiction|].
  rewrite (s_rem_head m y ry Ey). symmetry. apply (ordered_least rev); [apply ordered_filter; exact HS| |].
  - eapply Permutation_in; [exact Hp|]. apply in_flat_map. exists m. split; [exact Hm|rewrite Ey; left; reflexivity].
  - intros z Hz. apply (Permutation_in _ (Permutation_sym Hp)), in_flat_map in Hz. destruct Hz as (sz & Hsz & Hz).
    destruct (Hs sz (in_or_app _ _ _ (or_introl Hsz))) as (Hoz & _ & Hrz).
    apply (ordered_filter rev (inc c)) in Hoz. rewrite <- Hrz in Hoz.
    destruct (s_rem sz) as [|hz tz] eqn:Ez; [destruct Hz|].
    pose proof (Hmin sz hz y Hsz (s_rem_head _ _ _ Ez) (s_rem_head _ _ _ Ey)) as Hn.
    destruct Hz as [<-|Hz]; [exact Hn|]. destruct (kb (fst z) (fst y)) eqn:E; [|reflexivity].
    rewrite (kb_trans rev _ _ _ (proj2 (ordered_inv rev _ _ Hoz) z Hz) E) in Hn. discriminate.
Qed.

Theorem rel_rewind it c : Rel it c -> Rel (i_rewind it) CAll.
Proof.
  intros (Hrev & Hp & _ & _ & Hs). unfold i_rewind, Rel. cbn [i_rev i_live i_old].
  rewrite app_nil_r, <- map_app, (vals_map _ _ s_vals_rewind).
  apply (Forall_impl _ (SInv_rewind rev c)) in Hs.
  split; [exact Hrev|]. split; [exact Hp|]. split; [|split; [constructor|]]; apply Forall_map; revert Hs; apply Forall_impl; tauto.
Qed.

(* the target is not behind the cut *)
Definition seek_ok (c : cut) (t : bytes) : Prop := forall k, in_cut rev c k = false -> kb k t = true.

Theorem rel_seek it c t : Rel it c -> (i_valid it = true -> seek_ok c t) -> Rel (i_seek it t) (if i_valid it then CGe t else c).
Proof.
  intros HR Hok. pose proof HR as (Hrev & Hp & Hl & Ho & Hs). unfold i_seek.
  destruct (i_valid it); [specialize (Hok eq_refl)|exact HR]. rewrite Hrev.
  set (moved := map (s_seek rev t) (i_live it)).
  assert (Hmv : Forall (SInv (CGe t)) moved).
  { apply Forall_map, Forall_forall. intros s Hin. rewrite Forall_forall in Hl, Hs.
    exact (SInv_seek rev c t s (Hs s (in_or_app _ _ _ (or_introl Hin))) (Hl s Hin)). }
  unfold Rel. cbn [i_rev i_live i_old]. split; [reflexivity|]. split; [|split; [|split]].
  - eapply perm_trans; [|exact Hp]. rewrite !flat_map_app.
    eapply perm_trans; [apply Permutation_app_head, Permutation_app_comm|]. rewrite app_assoc, <- flat_map_app.
    apply Permutation_app_tail. rewrite <- (vals_map (s_seek rev t) (i_live it) (s_vals_seek rev t)).
    apply Permutation_flat_map, filter_partition_perm.
  - apply Forall_forall. intros s Hin. apply filter_In in Hin. tauto.
  - apply Forall_app. split; [exact Ho|]. apply Forall_forall. intros s Hin. apply filter_In in Hin. apply negb_true_iff. tauto.
  - apply Forall_app. split; [exact (incl_Forall (incl_filter _ _) Hmv)|]. apply Forall_app. split; [|exact (incl_Forall (incl_filter _ _) Hmv)].
    (* a parked iterator has nothing left, and what it holds was passed, hence lies before the target *)
    apply Forall_forall. intros s Hin. rewrite Forall_forall in Ho, Hs.
    pose proof (in_or_app (i_live it) _ _ (or_intror Hin)) as Hin'. apply (SInv_shrink rev c); [exact (Hs s Hin')| |].
    + intros y _ Hc. destruct (inc c y) eqn:E; [reflexivity|].
      unfold IndexProofs.inc, in_cut, at_or_after in Hc. rewrite (Hok _ E) in Hc. discriminate.
    + rewrite (s_invalid_rem s (Ho s Hin)). intros y [].
Qed.

(* a k-way merge step: the minimum m stands on the head x of the remainder and moves past it; what the
   others have left lies in the tail of the remainder, so for them the cut past x changes nothing *)
Theorem rel_next it c : Rel it c ->
  Rel (i_next it) (match hd_error (spec_rem c) with Some x => CGt (fst x) | None => c end).
Proof.
  intros HR. pose proof (rel_cur it c HR) as Hcur. pose proof (rel_rems it c HR) as Hrems.
  pose proof HR as (Hrev & Hp & Hl & Ho & Hs). unfold i_cur in Hcur. unfold i_next. rewrite Hrev in *.
  pose proof (min_live_spec rev (i_live it)) as Hperm.
  destruct (min_live rev (i_live it)) as [m|]; [apply proj1 in Hperm|rewrite <- Hcur; exact HR].
  (* up to the order of the live iterators, m comes first *)
  set (rest := remove_min rev (i_live it)) in *.
  rewrite Hperm in Hl, Hrems. rewrite (Permutation_app_tail (i_old it) Hperm) in Hp, Hs. clear Hperm.
  cbn [app flat_map] in Hp, Hs, Hrems.
  pose proof (Forall_inv Hl) as Hv. apply s_valid_rem in Hv. destruct (s_rem m) as [|x' rm] eqn:Em; [contradiction|].
  rewrite (s_rem_head m x' rm Em) in Hcur. pose proof (ordered_filter rev (inc c) S HS) as Hxr. fold (spec_rem c) in Hxr.
  destruct (spec_rem c) as [|x r] eqn:Er; [discriminate|]. injection Hcur as ->. cbn [hd_error app] in *.
  apply Permutation_cons_inv in Hrems. set (c' := CGt (fst x)).
  destruct (SInv_next rev c m x rm (Forall_inv Hs) Em) as [Hinv' Em'].
  assert (Hothers : Forall (SInv c') (rest ++ i_old it)).
  { apply Forall_forall. intros s Hin. rewrite Forall_forall in Hs, Ho. apply (SInv_shrink rev c); [apply Hs; right; exact Hin| |].
    - intros y _. apply (in_cut_up rev c (fst x)). assert (H : In x (spec_rem c)) by (rewrite Er; left; reflexivity).
      apply filter_In in H. tauto.
    - intros y Hy. apply in_app_or in Hin. destruct Hin as [Hin|Hin]; [|rewrite (s_invalid_rem s (Ho s Hin)) in Hy; destruct Hy].
      apply (proj2 (ordered_inv rev _ _ Hxr)). eapply Permutation_in; [exact Hrems|]. apply in_or_app. right.
      apply in_flat_map. exists s. split; assumption. }
  destruct (s_valid (s_next m)) eqn:Hv'; unfold Rel; cbn [i_rev i_live i_old]; (split; [reflexivity|]).
  - cbn [app flat_map]. rewrite s_vals_next. split; [exact Hp|]. split; [|split; [exact Ho|]]; constructor; try assumption.
    exact (Forall_inv_tail Hl).
  - split; [|split; [exact (Forall_inv_tail Hl)|split]].
    + rewrite app_assoc, flat_map_app. cbn [flat_map]. rewrite s_vals_next, app_nil_r.
      eapply perm_trans; [apply Permutation_app_comm|exact Hp].
    + apply Forall_app. split; [exact Ho|]. constructor; [exact Hv'|constructor].
    + rewrite app_assoc. apply Forall_app. split; [exact Hothers|]. constructor; [exact Hinv'|constructor].
Qed.

Theorem rel_new kind SH0 : Permutation (concat SH0) S -> Forall ordered SH0 -> Rel (i_new kind rev SH0) CAll.
Proof.
  intros Hp Hord. unfold i_new, Rel. cbn [i_rev i_live i_old]. rewrite app_nil_r.
  split; [reflexivity|]. split; [|split; [|split; [constructor|]]]; try apply Forall_forall.
  - (* the empty shards, which are dropped, contribute nothing *)
    eapply perm_trans; [|exact Hp]. clear. induction SH0 as [|[|x v] l IH]; [constructor|exact IH|].
    cbn [map filter flat_map concat]. apply Permutation_app_head. exact IH.
  - intros s Hin. apply filter_In in Hin. tauto.
  - intros s Hin. apply filter_In in Hin. destruct Hin as [Hin Hv]. apply in_map_iff in Hin. destruct Hin as (v & <- & Hin).
    apply s_valid_rem in Hv. rewrite Forall_forall in Hord. split; [exact (Hord v Hin)|]. split; [exact Hv|].
    symmetry. apply filter_all_true. reflexivity.
Qed.

(* iterator.go: the prefix filter *)
Variable prefix : bytes.
Definition pfx (x : bytes * pos) : bool := has_prefix prefix (fst x).
(* the reference: the ordered snapshot restricted to the keys with the prefix *)
Definition F : list (bytes * pos) := filter pfx S.

Definition positioned (c : cut) : Prop := match spec_rem c with [] => True | x :: _ => pfx x = true end.

Lemma skip_rel : forall fuel it c, Rel it c -> (length (spec_rem c) < fuel)%nat ->
  exists c', Rel (skip_to_next fuel prefix it) c' /\ positioned c' /\ filter pfx (spec_rem c') = filter pfx (spec_rem c).
Proof.
  induction fuel as [|fuel IH]; intros it c HR Hf; [lia|]. cbn [skip_to_next].
  rewrite (rel_cur it c HR). destruct (spec_rem c) as [|x r] eqn:Er; cbn [hd_error].
  - exists c. split; [exact HR|]. split; [unfold positioned; rewrite Er; exact I|rewrite Er; reflexivity].
  - destruct x as [k p]. destruct (has_prefix prefix k) eqn:Ep.
    + exists c. split; [exact HR|]. split; [unfold positioned; rewrite Er; exact Ep|rewrite Er; reflexivity].
    + pose proof (rel_next it c HR) as HRn. rewrite Er in HRn. cbn [hd_error fst] in HRn.
      pose proof (cut_next rev c S (k, p) r HS Er) as Er'. cbn [fst] in Er'. fold (spec_rem (CGt k)) in Er'.
      destruct (IH (i_next it) (CGt k) HRn ltac:(rewrite Er'; cbn [length] in Hf; lia)) as (c' & A & B & C).
      exists c'. split; [exact A|]. split; [exact B|]. rewrite C, Er'. cbn [filter]. unfold pfx at 2. cbn [fst]. rewrite Ep. reflexivity.
Qed.

Lemma total_len_bound it c : Rel it c -> (length (spec_rem c) <= total_len it)%nat.
Proof.
  intros (_ & Hp & _). unfold total_len.
  replace (fold_right _ _ _) with (length (flat_map s_vals (i_live it ++ i_old it))).
  - rewrite (Permutation_length Hp). apply filter_length_le.
  - clear. induction (i_live it ++ i_old it) as [|s l IH]; [reflexivity|]. cbn [flat_map fold_right]. rewrite app_length, IH. reflexivity.
Qed.

Definition DRel (d : dbit) (cr : cut) : Prop :=
  di_prefix d = prefix /\
  exists c, Rel (di_it d) c /\ positioned c /\ filter pfx (spec_rem c) = filter (inc cr) F.

Lemma di_skip_rel it c cr : Rel it c -> filter pfx (spec_rem c) = filter (inc cr) F -> DRel (di_skip (mkDbit it prefix)) cr.
Proof.
  intros HR Heq.
  (* without a prefix nothing is skipped, which is also what the loop does *)
  assert (E : di_skip (mkDbit it prefix) = mkDbit (skip_to_next (Datatypes.S (total_len it)) prefix it) prefix).
  { unfold di_skip. cbn [di_prefix di_it skip_to_next]. destruct prefix; [|reflexivity]. destruct (i_cur it) as [[k p]|]; reflexivity. }
  destruct (skip_rel (Datatypes.S (total_len it)) it c HR) as (c' & A & B & C); [pose proof (total_len_bound it c HR); lia|].
  rewrite E. split; [reflexivity|]. exists c'. cbn [di_it]. split; [exact A|]. split; [exact B|]. rewrite C. exact Heq.
Qed.
Lemma di_skip_at it c : Rel it c -> DRel (di_skip (mkDbit it prefix)) c.
Proof. intros HR. exact (di_skip_rel it c c HR (filter_comm _ _ _)). Qed.

Theorem drel_obs d cr : DRel d cr -> di_obs d = r_obs rev F cr.
Proof.
  intros (_ & c & HR & Hpos & Heq). unfold di_obs, di_cur, di_valid, r_obs, robs. rewrite (rel_cur _ c HR), (rel_valid _ c HR), <- Heq.
  unfold positioned in Hpos. destruct (spec_rem c) as [|x r]; [reflexivity|]. cbn [filter hd_error]. rewrite Hpos. reflexivity.
Qed.

Theorem drel_new kind SH0 : Permutation (concat SH0) S -> Forall ordered SH0 -> DRel (di_new kind rev prefix SH0) CAll.
Proof. intros Hp Ho. unfold di_new. apply di_skip_at, rel_new; assumption. Qed.

Theorem drel_step d cr o : DRel d cr ->
  (match o with ISeek t => forall x, robs rev F cr = Some x -> kb t (fst x) = false | _ => True end) ->
  DRel (di_step d o) (rstep rev F cr o).
Proof.
  intros HD Hlegal. pose proof HD as (Hp & c & HR & Hpos & Heq). pose proof (drel_obs d cr HD) as Hobs.
  unfold di_obs, r_obs, di_valid in Hobs. injection Hobs as Hval _. unfold positioned in Hpos.
  destruct o as [|t|]; cbn [di_step rstep]; unfold di_rewind, di_seek, di_next, robs in *; rewrite Hp, <- ?Heq in *.
  - apply di_skip_at. exact (rel_rewind _ c HR).
  - assert (Hok : i_valid (di_it d) = true -> seek_ok c t).
    { rewrite Hval. destruct (spec_rem c) as [|x r] eqn:Er; [discriminate|]. cbn [filter hd_error] in *. rewrite Hpos in *. intros _ k Hc.
      assert (Hx : inc c x = true) by (apply (filter_In (inc c) x S); fold (spec_rem c); rewrite Er; left; reflexivity).
      pose proof (in_cut_passed rev c _ k Hx Hc) as Hyx. pose proof (Hlegal x eq_refl) as Htx.
      destruct (bytes_eqb t (fst x)) eqn:Ee; [apply bytes_eqb_eq in Ee; rewrite Ee; exact Hyx|].
      apply bytes_eqb_neq in Ee. exact (kb_trans rev _ _ _ Hyx (kb_total rev _ _ Htx Ee)). }
    pose proof (rel_seek _ c t HR Hok) as HRs. rewrite Hval in HRs.
    destruct (hd_error (filter pfx (spec_rem c))); [exact (di_skip_at _ _ HRs)|exact (di_skip_rel _ c cr HRs Heq)].
  - pose proof (rel_next _ c HR) as HRn. destruct (spec_rem c) as [|x r] eqn:Er; cbn [hd_error filter] in *.
    + apply (di_skip_rel _ c cr); [exact HRn|rewrite Er; exact Heq].
    + rewrite Hpos. cbn [hd_error]. exact (di_skip_at _ _ HRn).
Qed.

Theorem drel_run : forall ops d cr, DRel d cr -> legal rev F cr ops -> di_run d ops = rrun rev F cr ops.
Proof.
  induction ops as [|o ops IH]; intros d cr H Hl; [reflexivity|]. cbn [di_run rrun legal] in *. destruct Hl as [Ho Hr].
  pose proof (drel_step d cr o H Ho) as H'. rewrite (drel_obs _ _ H'). f_equal. apply IH; assumption.
Qed.

End Sharded.

Section Shards.
Variable rev : bool.
Variable ix : list (bytes * pos).
Definition snap : list (bytes * pos) := if rev then List.rev ix else ix.

Lemma ordered_of_sorted : sorted ix -> ordered rev snap.
Proof.
  intros H. unfold ordered, snap, key_before. destruct rev; [|exact H].
  apply (StronglySorted_rev (fun a b => bytes_ltb (fst a) (fst b) = true)). exact H.
Qed.
Lemma shards_of_perm shf n : (0 < n)%nat -> Permutation (concat (shards_of shf n rev ix)) snap.
Proof. intros Hn. apply (classes_perm (fun x => Nat.modulo (shf (fst x)) n)). intros x _. apply Nat.mod_upper_bound. lia. Qed.
Lemma shards_of_ordered shf n : sorted ix -> Forall (ordered rev) (shards_of shf n rev ix).
Proof.
  intros H. apply Forall_forall. intros v Hv. apply in_map_iff in Hv. destruct Hv as (i & <- & _).
  apply ordered_filter. exact (ordered_of_sorted H).
Qed.
End Shards.

Section Final.
Variable shf : bytes -> nat.
Variable n : nat.
Hypothesis Hn : (0 < n)%nat.
Variable kind : ikind.
Variable rev : bool.
Variable prefix : bytes.
Variable ix : list (bytes * pos).
Hypothesis Hix : sorted ix.

Let S := snap rev ix.
Definition refF : list (bytes * pos) := filter (fun x => has_prefix prefix (fst x)) S.

Lemma refF_F : refF = F S prefix.
Proof. reflexivity. Qed.

(* C10: every legal call sequence on an iterator over the sharded index behaves like the cursor into
   the ordered, prefix-filtered snapshot - for every assignment of keys to shards, every shard count,
   every kind of shard iterator, both directions, every prefix *)
Theorem iterator_refines ops :
  legal rev refF CAll ops ->
  let d0 := di_new kind rev prefix (shards_of shf n rev ix) in
  di_obs d0 = r_obs rev refF CAll /\ di_run d0 ops = rrun rev refF CAll ops.
Proof.
  intros Hl. pose proof (ordered_of_sorted rev ix Hix) as HS.
  pose proof (drel_new rev S HS prefix kind _ (shards_of_perm rev ix shf n Hn) (shards_of_ordered rev ix shf n Hix)) as H0.
  split; [exact (drel_obs rev S HS prefix _ _ H0)|exact (drel_run rev S HS prefix ops _ _ H0 Hl)].
Qed.

End Final.

Section Reference.
Variable rev : bool.
Variable L : list (bytes * pos).
Hypothesis HL : ordered rev L.

Fixpoint nexts (k : nat) : list iop := match k with O => [] | Datatypes.S k' => INext :: nexts k' end.
Fixpoint cut_after (c : cut) (ops : list iop) : cut :=
  match ops with [] => c | o :: r => cut_after (rstep rev L c o) r end.

Lemma nexts_skipn : forall k c, filter (inc rev (cut_after c (nexts k))) L = skipn k (filter (inc rev c) L).
Proof.
  induction k as [|k IH]; intros c; [reflexivity|]. cbn [nexts cut_after rstep]. rewrite IH. unfold robs.
  destruct (filter (inc rev c) L) as [|x r] eqn:E; cbn [hd_error skipn].
  - rewrite E. apply skipn_nil.
  - rewrite (cut_next rev c L x r HL E). reflexivity.
Qed.

Theorem traversal k : robs rev L (cut_after CAll (nexts k)) = nth_error L k.
Proof. unfold robs. rewrite nexts_skipn, (filter_all_true (inc rev CAll)) by reflexivity. apply hd_error_skipn. Qed.

Theorem seek_first t : robs rev L (CGe t) = hd_error (filter (fun x => at_or_after rev t (fst x)) L).
Proof. reflexivity. Qed.

End Reference.
