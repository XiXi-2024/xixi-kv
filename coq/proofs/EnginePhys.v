(* EnginePhys.v — under standard I/O the physical size of every data file is its logical size, in
   every reachable state (memory-mapped files are extended in 512 MiB steps and cut back by Close and
   Backup).  Hence Backup (C20): for the database it is a read, and the copy it takes is a directory that
   opens like a closed one, at any point of any history. *)
From Coq Require Import ZArith Lia ZifyN ZifyNat ZifyBool Sorting.Sorted.
From KV Require Import Bytes GenConsts Chunk Record Engine Script BytesLemmas
  EngineFiles EngineOps EngineBatch EngineRefine EngineLog EngineRecover EngineCrash
  EngineOpen EngineKeep EngineMergeRun.
Open Scope N_scope.

(* PF io f: the physical size of f fits its logical size, which under memory-mapped I/O says nothing *)
Definition PF (io : N) (f : lfile) : Prop := (io =? io_MMap) = true \/ lf_phys f = lf_size f.
Definition PhysInv (d : db) : Prop := PF (io_of d) (d_active d) /\ Forall (fun x => PF (io_of d) (snd x)) (d_older d).

Lemma h_write_PF io nm f rs n : PF io f -> PF io (fst (h_write io nm f rs n)).
Proof.
  unfold PF, h_write. destruct (io =? io_MMap) eqn:E; [intros _; left; reflexivity|].
  intros [H|H]; [discriminate|]. right. cbn. lia.
Qed.
Lemma h_reset_PF io nm f : PF io (fst (h_reset nm f)).
Proof. unfold PF, h_reset. right. reflexivity. Qed.
Lemma h_close_PF io io' nm f : PF io' (fst (h_close io nm f)).
Proof. unfold PF, h_close. right. destruct (io =? io_MMap); reflexivity. Qed.

Lemma PF_remapped io f f' : remapped io f f' -> PF io f -> PF io f'.
Proof. intros (_ & _ & _ & _ & Hstd) [H|H]; [left; exact H|]. destruct (io =? io_MMap) eqn:E; [left; exact E|]. rewrite (Hstd eq_refl). right. exact H. Qed.
Lemma PF_if_synced io (s : bool) f : PF io f -> PF io (if s then synced f else f).
Proof. destruct s; auto. Qed.
Lemma PF_opened io f : PF io (opened io f).
Proof. unfold PF, opened, h_open. destruct (io =? io_MMap) eqn:E; [left; reflexivity|]. right. reflexivity. Qed.

Lemma lf_append_all_PF io nm fid f rs : PF io f -> PF io (fst (fst (lf_append_all io nm fid f rs))).
Proof.
  intros H. unfold lf_append_all. destruct (frame_all _ _ _ _) as [[out b'] s'].
  pose proof (h_write_PF io nm f out (b' * blockSize + s' - lf_size f) H) as Hw.
  destruct (h_write _ _ _ _ _) as [f' evs]. exact Hw.
Qed.
Lemma lf_append_PF io nm fid f r : PF io f -> PF io (fst (fst (lf_append io nm fid f r))).
Proof.
  intros H. pose proof (lf_append_all_PF io nm fid f [r] H) as Ha. rewrite lf_append_single in Ha.
  destruct (lf_append io nm fid f r) as [[a p] ev]. exact Ha.
Qed.

Lemma PhysInv_touched d d' : touched d d' -> PhysInv d -> PhysInv d'.
Proof.
  intros (a & o & Ha & Ho & ->) [Pa Po]. split; [exact (PF_remapped _ _ _ Ha Pa)|].
  apply (files_touched_Forall (io_of d) (fun x => PF (io_of d) (snd x)) (d_older d) o); [|exact Ho|exact Po].
  intros id f f' Hr. exact (PF_remapped _ f f' Hr).
Qed.
Lemma PhysInv_index_only d d' : index_only d d' -> PhysInv d -> PhysInv d'.
Proof. intros (ix & tot & rc & ->) H. exact H. Qed.
Lemma PhysInv_set_active d a : PhysInv d -> PF (io_of d) a -> PhysInv (set_active d (d_active_id d) a).
Proof. intros [_ Po] Pa. split; assumption. Qed.
Lemma PhysInv_rotated d : PhysInv d -> PhysInv (rotated d).
Proof.
  intros [Pa Po]. split; [apply PF_opened|]. apply older_set_Forall; [exact Po|]. exact (PF_if_synced _ true _ Pa).
Qed.

Lemma maybe_rotate_phys (c : bool) d d1 ev : (if c then db_rotate d else (d, [])) = (d1, ev) -> PhysInv d -> PhysInv d1.
Proof.
  intros H HP. apply (maybe_rotate_ind PhysInv c d d1 ev H HP). intros d' e H'. rewrite (db_rotate_inv _ _ _ H').
  exact (PhysInv_rotated d HP).
Qed.

Lemma db_append_phys d r d' p evs : db_append d r = (d', p, evs) -> PhysInv d -> PhysInv d'.
Proof.
  intros H HP. destruct (db_append_shape _ _ _ _ _ H) as (d1 & ev1 & a & ev2 & Hrot & Hla & ->).
  pose proof (maybe_rotate_phys _ _ _ _ Hrot HP) as H1.
  pose proof (lf_append_PF (io_of d1) (FData (d_active_id d1)) (d_active_id d1) (d_active d1) r (proj1 H1)) as Pa.
  rewrite Hla in Pa. split; [apply PF_if_synced; exact Pa|exact (proj2 H1)].
Qed.

Lemma batch_flush_phys d b d' b' evs : batch_flush d b = (d', b', evs) -> PhysInv d -> PhysInv d'.
Proof.
  intros H HP. destruct (batch_flush_shape _ _ _ _ _ H) as (_ & d1 & ev1 & a & ps & ev2 & Hrot & Hla & ->).
  pose proof (maybe_rotate_phys _ _ _ _ Hrot HP) as H1.
  pose proof (lf_append_all_PF (io_of d1) (FData (d_active_id d1)) (d_active_id d1) (d_active d1) (map (tag (b_id b)) (b_staged b)) (proj1 H1)) as Pa.
  rewrite Hla in Pa. apply (PhysInv_index_only _ _ (apply_staged_index_only _ _)).
  apply PhysInv_set_active; [exact H1|apply PF_if_synced; exact Pa].
Qed.
Lemma batch_flush_rotate_phys d b d' b' evs : batch_flush_rotate d b = (d', b', evs) -> PhysInv d -> PhysInv d'.
Proof.
  intros H HP. destruct (batch_flush_rotate_shape _ _ _ _ _ H) as (d1 & ev1 & Hf & ->).
  apply PhysInv_rotated. exact (batch_flush_phys _ _ _ _ _ Hf HP).
Qed.
Lemma batch_commit_phys d b d' b' e evs : batch_commit d b = (d', b', e, evs) -> PhysInv d -> PhysInv d'.
Proof.
  intros H HP. destruct (batch_commit_cases _ _ _ _ _ _ H) as [(_ & -> & _)|(_ & _ & _ & [(_ & -> & _)|(_ & d1 & b1 & ev1 & a & p & ev2 & Hf & Hla & ->)])];
    [exact HP|exact HP|].
  pose proof (batch_flush_phys _ _ _ _ _ Hf HP) as H1.
  pose proof (lf_append_PF (io_of d1) (FData (d_active_id d1)) (d_active_id d1) (d_active d1) (seal (b_id b)) (proj1 H1)) as Pa.
  rewrite Hla in Pa. apply PhysInv_set_active; [exact H1|apply PF_if_synced; exact Pa].
Qed.
Lemma run_bops_phys bops d b d' b' rs evs : run_bops d b bops = (d', b', rs, evs) -> PhysInv d -> PhysInv d'.
Proof.
  intros Hr HP. refine (proj1 (run_bops_db (fun _ => PhysInv) _ (fun _ => PhysInv_touched) bops d b d' b' rs evs HP Hr)).
  intros d0 b0 d1 b1 ev H0 Hf. exact (batch_flush_rotate_phys _ _ _ _ _ Hf H0).
Qed.

Lemma db_merge_phys d k order d' k' e evs : db_merge d k order = (d', k', e, evs) -> PhysInv d -> PhysInv d'.
Proof.
  intros H HP. destruct (db_merge_shape _ _ _ _ _ _ _ H) as (d1 & ev1 & d2 & res & ev5 & Hrot & Hmf & _ & Hres).
  rewrite (db_rotate_inv _ _ _ Hrot) in Hmf.
  pose proof (PhysInv_touched _ _ (merge_files_touched (d_cfg d) _ (rotated d) _ _ _ _ _ eq_refl Hmf) (PhysInv_rotated d HP)) as H2.
  destruct res as [m|er m]; [|destruct Hres as [-> _]; exact H2].
  destruct Hres as [[evS Hs] _]. rewrite db_sync_eq in Hs. injection Hs as <- _.
  apply PhysInv_set_active; [exact H2|exact (PF_if_synced _ true _ (proj1 H2))].
Qed.

Theorem db_open_phys c k d k' evs : db_open c k = (OpenOk d k', evs) -> PhysInv d.
Proof.
  intros H. destruct (load_merge_files k) as [[k1 mid] ev1] eqn:Hl.
  destruct (db_open_files (PF (c_io c)) c k k1 mid ev1 d k' evs Hl H (PF_if_synced _ true) (PF_opened _ _)) as [(A & B & E) _].
  - apply Forall_forall. intros x _. apply PF_opened.
  - unfold PhysInv, io_of. rewrite E. auto.
Qed.

Theorem step_phys d k o d' k' r evs : PhysInv d -> step (d, k) o = ((d', k'), r, evs) -> PhysInv d'.
Proof.
  intros HP Hst. apply step_cases in Hst. destruct o as [key v|key|key| | | | |sync id bops|order|c].
  - destruct Hst as (_ & e & H & _). destruct (db_put_cases _ _ _ _ _ _ H) as [(_ & -> & _)|(_ & _ & d1 & p & Ha & ->)]; [exact HP|].
    exact (PhysInv_index_only _ _ (idx_upd_index_only _ _ _) (db_append_phys _ _ _ _ _ Ha HP)).
  - destruct Hst as (_ & v & H & _). exact (PhysInv_touched _ _ (db_get_touched _ _ _ _ _ H) HP).
  - destruct Hst as (_ & e & H & _).
    destruct (db_delete_cases _ _ _ _ _ H) as [(_ & -> & _)|[(_ & _ & -> & _)|(_ & _ & d1 & p & Ha & -> & _)]]; [exact HP|exact HP|].
    exact (PhysInv_index_only _ _ (idx_upd_index_only _ _ _) (db_append_phys _ _ _ _ _ Ha HP)).
  - destruct Hst as (_ & -> & _). exact HP.
  - destruct Hst as (_ & x & H & _). exact (PhysInv_touched _ _ (db_fold_aux_touched _ _ _ _ _ H) HP).
  - destruct Hst as (_ & -> & _). exact HP.
  - destruct Hst as (_ & H & _). rewrite db_sync_eq in H. injection H as <- _.
    apply PhysInv_set_active; [exact HP|exact (PF_if_synced _ true _ (proj1 HP))].
  - destruct Hst as (_ & d1 & b1 & rs & ev1 & b2 & e & ev2 & Hr & Hc & _).
    exact (batch_commit_phys _ _ _ _ _ _ Hc (run_bops_phys _ _ _ _ _ _ _ Hr HP)).
  - destruct Hst as (e & H & _). exact (db_merge_phys _ _ _ _ _ _ _ H HP).
  - destruct Hst as (k1 & ev1 & ev2 & _ & Ho & _). exact (db_open_phys _ _ _ _ _ Ho).
Qed.

Theorem run_phys : forall ops d k s' rs evs, PhysInv d -> run (d, k) ops = (s', rs, evs) -> PhysInv (fst s').
Proof.
  intros ops d k s' rs evs HP Hrun.
  apply (run_invariant (fun s => PhysInv (fst s)) (fun _ => True)) with (ops := ops) (s := (d, k)) (rs := rs) (evs := evs);
    [|exact HP|apply Forall_forall; auto|exact Hrun].
  intros [d0 k0] o [d1 k1] r e HP0 _ Hst. exact (step_phys _ _ _ _ _ _ _ HP0 Hst).
Qed.

Lemma db_files_disk_ok d M : LogInv d M ->
  lf_phys (d_active d) = lf_size (d_active d) -> Forall (fun x => lf_phys (snd x) = lf_size (snd x)) (d_older d) ->
  asc (db_files d) /\ Forall file_ok (db_files d) /\ files_log (db_files d) = log d.
Proof.
  intros HL Ha Ho. pose proof (LogInv_InvO _ _ HL) as HO.
  destruct (db_files_ok d (LogInv_InvF _ _ HL) HO (LogInv_InvP _ _ HL)) as [E Hall].
  split; [rewrite E; apply ids_below_asc_app; exact HO|]. split; [|symmetry; exact (log_db_files d HO)].
  apply Forall_forall. intros [id f] Hin. destruct (Hall id f Hin) as [Hwf Hpo]. split; [exact Hwf|]. split; [exact Hpo|].
  rewrite E in Hin. apply in_app_or in Hin. rewrite Forall_forall in Ho.
  destruct Hin as [Hin|[[= <- <-]|[]]]; [exact (Ho _ Hin)|exact Ha].
Qed.

Lemma files_touched_cons io i h l l' : ids_above l i -> files_touched io l l' -> files_touched io ((i, h) :: l) ((i, h) :: l').
Proof.
  intros Ha Ht. revert Ha. induction Ht as [o|o fid f f' o' Hg Hr _ IH]; intros Ha; [apply ft_refl|].
  pose proof (ids_above_get _ _ _ _ Ha Hg) as Hlt.
  apply (ft_step io _ fid f f'); [cbn [older_get]; destruct (i =? fid) eqn:E; [lia|exact Hg]|exact Hr|].
  cbn [older_set]. destruct (i =? fid) eqn:E; [lia|]. destruct (fid <? i) eqn:E2; [lia|]. apply IH.
  clear - Ha Hlt. induction o as [|[j g] o IH]; cbn [older_set ids_above] in *; [auto|].
  destruct (j =? fid); [cbn [ids_above]; tauto|]. destruct (fid <? j); cbn [ids_above]; tauto.
Qed.
Lemma files_touched_map io g o : asc o -> (forall f, remapped io f (g f)) -> files_touched io o (map_files g o).
Proof.
  intros Ha Hg. induction o as [|[i f] o IH]; [apply ft_refl|]. destruct Ha as [Ha1 Ha2].
  apply (ft_step io _ i f (g f)); [cbn [older_get]; rewrite N.eqb_refl; reflexivity|apply Hg|].
  cbn [older_set]. rewrite N.eqb_refl. exact (files_touched_cons io i (g f) o _ Ha1 (IH Ha2)).
Qed.

(* Backup cuts memory-mapped files back to their size, which the database sees as a read *)
Lemma db_backup_source d k d' kb evs : InvO d -> PhysInv d -> db_backup d k = (d', kb, evs) ->
  touched d d' /\ kb = mkDisk (db_files d') (k_hint k) None /\
  lf_phys (d_active d') = lf_size (d_active d') /\ Forall (fun x => lf_phys (snd x) = lf_size (snd x)) (d_older d').
Proof.
  intros HO [Pa Po] Hb. unfold db_backup in Hb. destruct (io_of d =? io_MMap) eqn:Eio.
  - rewrite h_reset_eq in Hb. pose proof (reset_all_fst (d_older d)) as Hr. destruct (reset_all (d_older d)) as [o ev2].
    cbn [fst] in Hr. subst o. injection Hb as <- <- _.
    assert (Hg : forall f, remapped (io_of d) f (reset f)) by (intros f; repeat split; intros E; congruence).
    split; [exists (reset (d_active d)), (map_files reset (d_older d)); split; [apply Hg|];
            split; [exact (files_touched_map _ reset _ (ids_below_asc _ _ HO) Hg)|reflexivity]|].
    split; [reflexivity|]. split; [reflexivity|]. apply Forall_forall. intros [id f'] Hin.
    apply in_map_files in Hin. destruct Hin as (f & _ & ->). reflexivity.
  - injection Hb as <- <- _. split; [apply touched_refl|]. split; [reflexivity|].
    destruct Pa as [Pa|Pa]; [congruence|]. split; [exact Pa|]. eapply Forall_impl; [|exact Po]. intros x [H|H]; [congruence|exact H].
Qed.

(* Backup: the source keeps its mapping and stays usable; the copy is a directory that opens, under
   any configuration, as an independent database with exactly the source's mapping at that time *)
Theorem db_backup_spec d k M c d' kb evs :
  LogInv d M -> PhysInv d -> db_backup d k = (d', kb, evs) ->
  LogInv d' M /\ PhysInv d' /\ d_cfg d' = d_cfg d /\ log d' = log d /\
  k_merge kb = None /\ k_hint kb = k_hint k /\ files_log (k_data kb) = log d /\
  exists dd k2 ev2, db_open c kb = (OpenOk dd k2, ev2) /\ LogInv dd M /\ d_cfg dd = c /\ k_merge k2 = None.
Proof.
  intros HL HP Hb. destruct (db_backup_source d k d' kb evs (LogInv_InvO _ _ HL) HP Hb) as (Ht & -> & Ha & Ho).
  pose proof (LogInv_touched d d' M HL Ht) as HL'. pose proof (proj1 (log_touched d d' (LogInv_InvO _ _ HL) Ht)) as Hlog.
  destruct (db_files_disk_ok d' M HL' Ha Ho) as (Hasc & Hok & Hfl). rewrite Hlog in Hfl.
  split; [exact HL'|]. split; [exact (PhysInv_touched d d' Ht HP)|].
  split; [destruct Ht as (a & o & _ & _ & ->); reflexivity|]. split; [exact Hlog|]. do 2 (split; [reflexivity|]). split; [exact Hfl|].
  destruct (db_open_spec c (mkDisk (db_files d') (k_hint k) None)) as (dd & k2 & ev2 & Hop & HLO & Hlog' & Hc & Hnm2);
    [split; [reflexivity|split; assumption]|]. cbn [k_data] in *.
  exists dd, k2, ev2. split; [exact Hop|]. rewrite Hfl in HLO, Hlog'. rewrite (LogInv_sreplay _ _ HL) in HLO.
  split; [split; [exact HLO|rewrite Hlog', (LogInv_sreplay _ _ HL); reflexivity]|auto].
Qed.

Theorem backup_source_G d k M d' kb evs :
  G d k M -> PhysInv d -> db_backup d k = (d', kb, evs) -> G d' k M /\ PhysInv d'.
Proof.
  intros [HL HM] HPh Hb.
  destruct (db_backup_spec d k M (d_cfg d) d' kb evs HL HPh Hb) as (HL' & HPh' & _ & Hlog & _).
  split; [|exact HPh']. split; [exact HL'|].
  destruct (db_backup_source d k d' kb evs (LogInv_InvO _ _ HL) HPh Hb) as (Ht & _).
  apply (MergeState_transport d k M d' M [] HM (touched_keep _ _ Ht)); [rewrite Hlog, app_nil_r; reflexivity|reflexivity].
Qed.

Theorem backup_after_history : forall c cb ops d k ev0 s' rs evs d' kb evb,
  db_open c empty_disk = (OpenOk d k, ev0) -> ops_ok (d, k) ops -> run (d, k) ops = (s', rs, evs) ->
  db_backup (fst s') (snd s') = (d', kb, evb) ->
  (exists dd k2 ev2, db_open cb kb = (OpenOk dd k2, ev2) /\ G dd k2 (final_state [] ops) /\ PhysInv dd /\ d_cfg dd = cb) /\
  G d' (snd s') (final_state [] ops) /\ PhysInv d'.
Proof.
  intros c cb ops d k ev0 s' rs evs d' kb evb Ho Hok Hrun Hb.
  pose proof (open_empty_G c d k ev0 Ho) as HG.
  destruct (run_G ops d k [] s' rs evs HG Hok Hrun) as [_ HGs].
  pose proof (run_phys ops d k s' rs evs (db_open_phys _ _ _ _ _ Ho) Hrun) as HPs.
  destruct (backup_source_G _ _ _ _ _ _ HGs HPs Hb) as [HG' HP'].
  split; [|split; assumption].
  destruct (db_backup_spec _ _ _ cb _ _ _ (proj1 HGs) HPs Hb) as (_ & _ & _ & _ & _ & _ & _ & dd & k2 & ev2 & Hod & HLd & Hcd & Hk2).
  exists dd, k2, ev2. split; [exact Hod|]. split; [|split; [exact (db_open_phys _ _ _ _ _ Hod)|exact Hcd]].
  split; [exact HLd|exact (MergeState_none dd k2 _ Hk2)].
Qed.
