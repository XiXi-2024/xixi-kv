(* ChunkProofs.v — one chunk: DecodeChunk as an equation and its two directions; one chunk of a block. *)
From Coq Require Import ZArith Lia ZifyN ZifyNat ZifyBool.
From KV Require Import Bytes GenConsts Chunk BytesLemmas.
Open Scope N_scope.

(* tie to the regenerated constants: these break when the source constants change *)
Lemma blockSize_val : blockSize = 32768. Proof. reflexivity. Qed.
Lemma chunkHeaderSize_val : chunkHeaderSize = 7. Proof. reflexivity. Qed.
Lemma ct_vals : ct_Full = 0 /\ ct_First = 1 /\ ct_Middle = 2 /\ ct_Last = 3.
Proof. repeat split; reflexivity. Qed.

Lemma gslice_ok i j (l : bytes) : i <= j -> j <= len l -> gslice i j l = Some (take (j - i) (drop i l)).
Proof. intros H1 H2. unfold gslice. rewrite slice_eq.
  destruct (i <=? j) eqn:E1; [|lia]. destruct (j <=? len l) eqn:E2; [|lia]. reflexivity. Qed.
Lemma gindex_eq i (l : bytes) : i < len l -> gindex i l = Some (hd 0 (drop i l)).
Proof.
  intros H. unfold gindex. rewrite fdrop_eq. destruct (drop i l) eqn:E; [|reflexivity].
  apply (f_equal len) in E. rewrite len_drop in E. cbn [len] in E. lia.
Qed.

Section WithCrc.
Variable crc : bytes -> N.

Notation chunk_header := (chunk_header crc).
Notation enc_chunk := (enc_chunk crc).
Notation decode_chunk := (decode_chunk crc).

Lemma len_chunk_header ty p : len (chunk_header ty p) = 7.
Proof. unfold Chunk.chunk_header. rewrite !len_app, len_le32, len_le16, len_cons, len_nil. reflexivity. Qed.
Lemma len_enc_chunk c : len (enc_chunk c) = 7 + len (snd c).
Proof. unfold Chunk.enc_chunk. rewrite len_app, len_chunk_header. reflexivity. Qed.

Lemma enc_chunk_inj ty p ty' p' : enc_chunk (ty, p) = enc_chunk (ty', p') -> p = p'.
Proof.
  intros H. apply (f_equal (drop 7)) in H. unfold Chunk.enc_chunk in H. cbn [fst snd] in H.
  rewrite !drop_app_exact in H by (rewrite len_chunk_header; reflexivity). exact H.
Qed.

Lemma decode_chunk_eq c : decode_chunk c =
  if len c <? 7 then Err UnexpectedEOF else
  let l := rd16 (take 2 (drop 4 c)) in
  if len c <? 7 + l then Err UnexpectedEOF else
  if rd32 (take 4 c) =? crc (take (3 + l) (drop 4 c)) then Ok (take l (drop 7 c), hd 0 (drop 6 c))
  else Err InvalidCRC.
Proof.
  unfold Chunk.decode_chunk. rewrite chunkHeaderSize_val.
  destruct (len c <? 7) eqn:E1; [reflexivity|]. rewrite (gslice_ok 4 6 c) by lia. change (6 - 4) with 2.
  cbv zeta. set (l := rd16 (take 2 (drop 4 c))). destruct (len c <? 7 + l) eqn:E2; [reflexivity|].
  rewrite (gslice_ok 4 (7 + l) c), (gslice_ok 0 4 c), (gslice_ok 7 (7 + l) c), gindex_eq, drop_0 by lia.
  replace (7 + l - 4) with (3 + l) by lia. replace (7 + l - 7) with l by lia. reflexivity.
Qed.

Lemma decode_raw (sum lenb : bytes) ty (d rest : bytes) :
  len sum = 4 -> len lenb = 2 -> rd16 lenb = len d ->
  decode_chunk (sum ++ lenb ++ [ty] ++ d ++ rest) =
    if rd32 sum =? crc (lenb ++ [ty] ++ d) then Ok (d, ty) else Err InvalidCRC.
Proof.
  intros L1 L2 L3. rewrite decode_chunk_eq. set (c := sum ++ lenb ++ [ty] ++ d ++ rest).
  assert (D4 : drop 4 c = lenb ++ [ty] ++ d ++ rest) by (apply drop_app_exact; symmetry; exact L1).
  assert (D6 : drop 6 c = [ty] ++ d ++ rest)
    by (change 6 with (2 + 4); rewrite <- drop_drop, D4; apply drop_app_exact; symmetry; exact L2).
  assert (D7 : drop 7 c = d ++ rest) by (change 7 with (1 + 6); rewrite <- drop_drop, D6; apply drop_app_exact; reflexivity).
  assert (Hc : len c = 7 + len d + len rest) by (unfold c, byte in *; rewrite !len_app, L1, L2; cbn [len]; lia).
  rewrite D4, D6, D7, (take_app_exact lenb), L3 by (symmetry; exact L2). cbv zeta.
  destruct (len c <? 7) eqn:E1; [lia|]. destruct (len c <? 7 + len d) eqn:E2; [lia|].
  unfold c. rewrite (take_app_exact sum), (take_app_exact d) by (symmetry; assumption || reflexivity).
  replace (lenb ++ [ty] ++ d ++ rest) with ((lenb ++ [ty] ++ d) ++ rest) by (rewrite <- !app_assoc; reflexivity).
  rewrite take_app_exact by (unfold byte in *; rewrite !len_app, L2; cbn [len]; lia). reflexivity.
Qed.

Theorem decode_chunk_sound c d ty :
  decode_chunk c = Ok (d, ty) ->
  exists sum lenb rest, c = sum ++ lenb ++ [ty] ++ d ++ rest /\ len sum = 4 /\ len lenb = 2 /\
    rd16 lenb = len d /\ rd32 sum = crc (lenb ++ [ty] ++ d).
Proof.
  rewrite decode_chunk_eq. destruct (len c <? 7) eqn:E1; [discriminate|]. cbv zeta.
  set (l := rd16 (take 2 (drop 4 c))). destruct (len c <? 7 + l) eqn:E2; [discriminate|].
  destruct (_ =? _) eqn:Ecrc; [|discriminate]. intros [= <- <-]. apply N.eqb_eq in Ecrc.
  assert (D6 : drop 6 c = hd 0 (drop 6 c) :: drop 7 c).
  { change 7 with (1 + 6). rewrite <- drop_drop, drop_1. destruct (drop 6 c) eqn:E; [|reflexivity].
    apply (f_equal len) in E. rewrite len_drop in E. cbn [len] in E. lia. }
  assert (Hl : l <= len (drop 7 c)) by (rewrite len_drop; lia).
  exists (take 4 c), (take 2 (drop 4 c)), (drop l (drop 7 c)). split; [|split; [|split; [|split]]].
  - cbn [app]. rewrite take_drop, <- D6. change 6 with (2 + 4). rewrite <- drop_drop, !take_drop. reflexivity.
  - apply len_take_le. unfold byte in *. lia.
  - apply len_take_le. rewrite len_drop. unfold byte in *. lia.
  - rewrite (len_take_le _ _ Hl). reflexivity.
  - rewrite Ecrc. replace (3 + l) with (2 + (1 + l)) by lia. rewrite take_add, drop_drop. change (2 + 4) with 6.
    rewrite D6, take_cons by lia. replace (1 + l - 1) with l by lia. reflexivity.
Qed.

Lemma decode_chunk_fits c d ty : decode_chunk c = Ok (d, ty) -> 7 + len d <= len c.
Proof.
  intros H. destruct (decode_chunk_sound c d ty H) as (sm & lb & rest & -> & L1 & L2 & _).
  unfold byte in *. rewrite !len_app, L1, L2. cbn [len]. lia.
Qed.

(* the bytes of block [bid] present in a file of [fs] bytes *)
Definition avail (fs bid : N) : N :=
  if fs - bid * blockSize <=? blockSize then fs - bid * blockSize else blockSize.
Definition chunk_at (c : bytes) (block_end fsize : N) : chunk_res :=
  match decode_chunk c with
  | Ok (d, ty) => CData d ty
  | Err e => CErr (chunk_error e c block_end fsize)
  | _ => CPanic
  end.

Lemma avail_le fs bid : avail fs bid <= blockSize /\ avail fs bid <= fs - bid * blockSize.
Proof. unfold avail. destruct (_ <=? _) eqn:E; lia. Qed.

Lemma read_chunk_eq f fs bid off : read_chunk crc f fs bid off =
  if (fs <=? bid * blockSize) || (avail fs bid <=? off) then CEnd
  else chunk_at (slice (bid * blockSize + off) (bid * blockSize + avail fs bid) f) (bid * blockSize + avail fs bid) fs.
Proof. unfold read_chunk. destruct (fs <=? bid * blockSize); reflexivity. Qed.

Lemma read_chunk_end f fs bid off : fs <= bid * blockSize + off -> read_chunk crc f fs bid off = CEnd.
Proof.
  intros H. rewrite read_chunk_eq. destruct (avail_le fs bid).
  destruct (fs <=? bid * blockSize) eqn:E1; [reflexivity|]. destruct (avail fs bid <=? off) eqn:E2; [reflexivity|lia].
Qed.

Lemma read_chunk_cases f fs bid off :
  read_chunk crc f fs bid off = CEnd \/
  exists c e, off + len c <= blockSize /\ bid * blockSize + off + len c <= fs /\ read_chunk crc f fs bid off = chunk_at c e fs.
Proof.
  rewrite read_chunk_eq. destruct (avail_le fs bid).
  destruct (fs <=? bid * blockSize) eqn:E1; [left; reflexivity|]. destruct (avail fs bid <=? off) eqn:E2; [left; reflexivity|].
  right. eexists _, _. split; [|split; [|reflexivity]]; rewrite slice_eq, len_take; destruct (_ <=? len _) eqn:E; lia.
Qed.

Lemma read_chunk_at pre (c : bytes) post bid off :
  len pre = bid * blockSize + off -> 0 < len c -> off + len c <= blockSize ->
  exists tl e, read_chunk crc (pre ++ c ++ post) (len (pre ++ c ++ post)) bid off
               = chunk_at (c ++ tl) e (len (pre ++ c ++ post)).
Proof.
  intros Hpre Hc Hfit. rewrite read_chunk_eq. set (fs := len (pre ++ c ++ post)).
  assert (Hfs : fs = len pre + len c + len post) by (unfold fs; rewrite !len_app; lia).
  assert (Ha : off + len c <= avail fs bid) by (unfold avail; destruct (_ <=? _) eqn:E; lia).
  destruct (fs <=? bid * blockSize) eqn:E1; [lia|]. destruct (avail fs bid <=? off) eqn:E2; [lia|].
  rewrite slice_eq, <- Hpre, drop_app_exact, take_app_ge by lia. eexists _, _. reflexivity.
Qed.

Hypothesis crc_u32 : forall b, crc b < 4294967296.

Lemma decode_chunk_len c d ty : decode_chunk c = Ok (d, ty) -> 7 + len d <= len c.
Proof using crc_u32. exact (decode_chunk_fits c d ty). Qed.

Lemma decode_enc ty p rest :
  len p < 65536 -> decode_chunk (enc_chunk (ty, p) ++ rest) = Ok (p, ty).
Proof.
  intros Hp. unfold Chunk.enc_chunk, Chunk.chunk_header. cbn [fst snd]. rewrite <- !app_assoc.
  rewrite decode_raw; [|reflexivity|reflexivity|apply rd16_le16, Hp].
  rewrite rd32_le32 by apply crc_u32.
  unfold chunk_body. rewrite <- app_assoc, N.eqb_refl. reflexivity.
Qed.

End WithCrc.
