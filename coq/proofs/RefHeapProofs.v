(* RefHeapProofs.v — with copies at the boundary the engine is immune to what the caller does to
   its buffers and to the slices it was given back (C15). *)
From Coq Require Import List NArith Bool Lia Arith.
From KV Require Import Bytes RefHeap ListLemmas.
Import ListNotations.
Close Scope N_scope.
Open Scope nat_scope.

Lemma set_cell_length h a b : length (set_cell h a b) = length h.
Proof. rewrite set_cell_upd. apply upd_nth_length. Qed.
Lemma deref_set_same h a b : a < length h -> deref (set_cell h a b) a = b.
Proof. rewrite set_cell_upd. apply nth_upd_eq. Qed.
Lemma deref_set_other h a b a' : a' <> a -> deref (set_cell h a b) a' = deref h a'.
Proof. intros H. rewrite set_cell_upd. apply nth_upd_neq. auto. Qed.
Lemma deref_alloc_old h b a : a < length h -> deref (h ++ [b]) a = deref h a.
Proof. intros H. unfold deref. apply app_nth1. exact H. Qed.
Lemma deref_alloc_new h b : deref (h ++ [b]) (length h) = b.
Proof. unfold deref. rewrite app_nth2 by lia. rewrite Nat.sub_diag. reflexivity. Qed.

(* the engine's cells are allocated cells other than the caller's buffers and the returned cells *)
Definition WInv (w : world) : Prop :=
  w_kbuf w < length (w_heap w) /\ w_vbuf w < length (w_heap w) /\ w_kbuf w <> w_vbuf w /\
  (forall ka va, In (ka, va) (w_store w) ->
     ka < length (w_heap w) /\ va < length (w_heap w) /\
     ka <> w_kbuf w /\ ka <> w_vbuf w /\ va <> w_kbuf w /\ va <> w_vbuf w /\
     ~ In ka (w_ret w) /\ ~ In va (w_ret w)) /\
  (forall a, In a (w_ret w) -> a < length (w_heap w) /\ a <> w_kbuf w /\ a <> w_vbuf w).

(* The invariant speaks of addresses only, so it survives every write, and growth of the heap; the
   store may shrink, take the two cells allocated last as a new entry, and the cell allocated last may
   be handed out. *)
Lemma WInv_mono w h' st' : WInv w -> length (w_heap w) <= length h' -> incl st' (w_store w) ->
  WInv (mkWorld h' st' (w_kbuf w) (w_vbuf w) (w_ret w)).
Proof.
  intros (Hk & Hv & Hkv & Hst & Hret) Hl Hsub. unfold WInv. cbn [w_heap w_store w_kbuf w_vbuf w_ret].
  split; [lia|]. split; [lia|]. split; [exact Hkv|]. split.
  - intros ka va Hin. destruct (Hst ka va (Hsub _ Hin)) as (A1 & A2 & A). split; [lia|]. split; [lia|exact A].
  - intros a Hin. destruct (Hret a Hin) as [A1 A]. split; [lia|exact A].
Qed.
Lemma WInv_put w h' st' : WInv w -> length h' = S (S (length (w_heap w))) -> incl st' (w_store w) ->
  WInv (mkWorld h' ((length (w_heap w), S (length (w_heap w))) :: st') (w_kbuf w) (w_vbuf w) (w_ret w)).
Proof.
  intros HI Hl Hsub. pose proof (WInv_mono w h' st' HI ltac:(lia) Hsub) as (Hk & Hv & Hkv & Hst & Hret).
  destruct HI as (Hk0 & Hv0 & _ & _ & Hret0). unfold WInv. cbn [w_heap w_store w_kbuf w_vbuf w_ret] in *.
  split; [exact Hk|]. split; [exact Hv|]. split; [exact Hkv|]. split; [|exact Hret].
  intros ka va [E|Hin]; [|exact (Hst ka va Hin)]. injection E as <- <-.
  assert (Hfresh : forall a, length (w_heap w) <= a -> ~ In a (w_ret w)) by (intros a Ha Hr; destruct (Hret0 a Hr); lia).
  repeat split; try lia; apply Hfresh; lia.
Qed.
Lemma WInv_get w h' : WInv w -> length h' = S (length (w_heap w)) ->
  WInv (mkWorld h' (w_store w) (w_kbuf w) (w_vbuf w) (length (w_heap w) :: w_ret w)).
Proof.
  intros HI Hl. pose proof (WInv_mono w h' _ HI ltac:(lia) (incl_refl _)) as (Hk & Hv & Hkv & Hst & Hret).
  destruct HI as (Hk0 & Hv0 & _ & Hst0 & _). unfold WInv. cbn [w_heap w_store w_kbuf w_vbuf w_ret] in *.
  split; [exact Hk|]. split; [exact Hv|]. split; [exact Hkv|]. split.
  - intros ka va Hin. destruct (Hst ka va Hin) as (A1 & A2 & A3 & A4 & A5 & A6 & A7 & A8). destruct (Hst0 ka va Hin) as (B1 & B2 & _).
    repeat split; try assumption; intros [E|Hr]; auto; lia.
  - intros a [<-|Hr]; [repeat split; lia|exact (Hret a Hr)].
Qed.

(* The frame.  Every write of a call goes to one of the caller's two buffers or to a cell allocated
   during the call, so the cells that existed before, the two buffers excepted, keep their content. *)
Definition keeps (k v : nat) (h h' : heap) : Prop :=
  length h <= length h' /\ forall a, a < length h -> a <> k -> a <> v -> deref h' a = deref h a.

Lemma keeps_refl k v h : keeps k v h h.
Proof. split; auto. Qed.
Lemma keeps_set k v h h' a b : keeps k v h h' -> a = k \/ a = v \/ length h <= a -> keeps k v h (set_cell h' a b).
Proof.
  intros [Hl Hd] Ha. split; [rewrite set_cell_length; exact Hl|]. intros a' A B C. rewrite deref_set_other by lia. auto.
Qed.
Lemma keeps_alloc k v h h' b : keeps k v h h' -> keeps k v h (h' ++ [b]).
Proof. intros [Hl Hd]. split; [rewrite app_length; lia|]. intros a A B C. rewrite deref_alloc_old by lia. auto. Qed.
Lemma keeps_trans k v h1 h2 h3 : keeps k v h1 h2 -> keeps k v h2 h3 -> keeps k v h1 h3.
Proof. intros [L1 D1] [L2 D2]. split; [lia|]. intros a A B C. rewrite D2 by (try assumption; lia). auto. Qed.

Lemma keeps_store w h' : WInv w -> keeps (w_kbuf w) (w_vbuf w) (w_heap w) h' ->
  forall ka va, In (ka, va) (w_store w) -> deref h' ka = deref (w_heap w) ka /\ deref h' va = deref (w_heap w) va.
Proof.
  intros (_ & _ & _ & Hst & _) [_ Hd] ka va Hin. destruct (Hst ka va Hin) as (A1 & A2 & A3 & A4 & A5 & A6 & _). auto.
Qed.

Definition abs_of (h : heap) (st : list (nat * nat)) : list (bytes * bytes) :=
  map (fun e => (deref h (fst e), deref h (snd e))) st.

Lemma abs_ext h h' st : (forall ka va, In (ka, va) st -> deref h' ka = deref h ka /\ deref h' va = deref h va) ->
  abs_of h' st = abs_of h st.
Proof.
  intros H. unfold abs_of. apply map_ext_in. intros [ka va] Hin. cbn [fst snd]. destruct (H ka va Hin) as [A B]. rewrite A, B. reflexivity.
Qed.
Lemma remove_entry_abs h st k : abs_of h (remove_entry h st k) = v_remove (abs_of h st) k.
Proof.
  induction st as [|[ka va] st IH]; [reflexivity|]. cbn [remove_entry abs_of map v_remove fst snd].
  destruct (bytes_eqb (deref h ka) k); [exact IH|]. cbn [abs_of map fst snd]. f_equal. exact IH.
Qed.
Lemma remove_entry_incl h st k : incl (remove_entry h st k) st.
Proof.
  induction st as [|[ka va] st IH]; [intros e []|]. cbn [remove_entry]. destruct (bytes_eqb (deref h ka) k).
  - apply incl_tl. exact IH.
  - apply incl_cons; [left; reflexivity|apply incl_tl; exact IH].
Qed.
Lemma remove_entry_ext h h' st k : (forall ka va, In (ka, va) st -> deref h' ka = deref h ka) ->
  remove_entry h' st k = remove_entry h st k.
Proof.
  induction st as [|[ka va] st IH]; intros H; [reflexivity|]. cbn [remove_entry].
  rewrite (H ka va (or_introl eq_refl)). rewrite IH; [reflexivity|]. intros a b Hin. apply (H a b). right. exact Hin.
Qed.
Lemma find_entry_abs h st k :
  match find_entry h st k with Some (_, va) => v_find (abs_of h st) k = Some (deref h va) /\ exists ka, In (ka, va) st
                            | None => v_find (abs_of h st) k = None end.
Proof.
  induction st as [|[ka va] st IH]; [reflexivity|]. cbn [find_entry abs_of map v_find fst snd].
  destruct (bytes_eqb (deref h ka) k); [split; [reflexivity|exists ka; left; reflexivity]|].
  destruct (find_entry h st k) as [[ka' va']|]; [|exact IH]. destruct IH as [A [kb B]]. split; [exact A|exists kb; right; exact B].
Qed.
Lemma find_entry_ext h h' st k : (forall ka va, In (ka, va) st -> deref h' ka = deref h ka) ->
  find_entry h' st k = find_entry h st k.
Proof.
  induction st as [|[ka va] st IH]; intros H; [reflexivity|]. cbn [find_entry].
  rewrite (H ka va (or_introl eq_refl)). rewrite IH; [reflexivity|]. intros a b Hin. apply (H a b). right. exact Hin.
Qed.

Lemma abs_of_cons h ka va st : abs_of h ((ka, va) :: st) = (deref h ka, deref h va) :: abs_of h st.
Proof. reflexivity. Qed.
Lemma w_abs_of w : w_abs w = abs_of (w_heap w) (w_store w).
Proof. reflexivity. Qed.

Lemma keeps_reads w h' key : WInv w -> keeps (w_kbuf w) (w_vbuf w) (w_heap w) h' ->
  (forall st', incl st' (w_store w) -> abs_of h' st' = abs_of (w_heap w) st') /\
  remove_entry h' (w_store w) key = remove_entry (w_heap w) (w_store w) key /\
  find_entry h' (w_store w) key = find_entry (w_heap w) (w_store w) key.
Proof.
  intros HI K. pose proof (keeps_store w h' HI K) as Hd. split; [|split].
  - intros st' Hsub. apply abs_ext. intros ka va Hin. apply Hd. apply Hsub. exact Hin.
  - apply remove_entry_ext. intros ka va Hin. apply (Hd ka va Hin).
  - apply find_entry_ext. intros ka va Hin. apply (Hd ka va Hin).
Qed.

Definition step_ok (w : world) (o : hop) : Prop :=
  let '(w', r) := hstep w o in
  WInv w' /\ w_abs w' = fst (vstep (w_abs w) o) /\ r = snd (vstep (w_abs w) o) /\
  keeps (w_kbuf w) (w_vbuf w) (w_heap w) (w_heap w') /\ w_kbuf w' = w_kbuf w /\ w_vbuf w' = w_vbuf w.

Local Hint Resolve keeps_refl keeps_set keeps_alloc : core.

Theorem hstep_ok w o : WInv w -> step_ok w o.
Proof.
  intros HI. pose proof HI as (Hk & Hv & Hkv & _). unfold step_ok. rewrite !w_abs_of.
  pose proof (fun h' K key => keeps_reads w h' key HI K) as Hst.
  set (h := w_heap w) in *. set (kb := w_kbuf w) in *. set (vb := w_vbuf w) in *. set (st := w_store w) in *.
  assert (D0 : forall key, deref (set_cell h kb key) kb = key) by (intros key; apply deref_set_same; exact Hk).
  destruct o as [k v jk jv|k jk|k jk poison]; cbn [hstep vstep fst snd]; fold h kb vb st.
  - set (h0 := set_cell (set_cell h kb k) vb v).
    assert (L0 : length h0 = length h) by (unfold h0; rewrite !set_cell_length; reflexivity).
    assert (Dk : deref h0 kb = k) by (unfold h0; rewrite deref_set_other by exact Hkv; apply D0).
    assert (Dv : deref h0 vb = v) by (unfold h0; apply deref_set_same; rewrite set_cell_length; exact Hv).
    unfold alloc. cbn [fst snd]. rewrite Dk, (deref_alloc_old h0 k vb), Dv by lia.
    set (h1 := h0 ++ [k]). set (h2 := h1 ++ [v]). set (h3 := set_cell (set_cell h2 kb jk) vb jv).
    assert (L1 : length h1 = S (length h)) by (unfold h1; rewrite app_length, L0; cbn [length]; lia).
    assert (Dka : deref h2 (length h0) = k) by (unfold h2, h1; rewrite deref_alloc_old by (rewrite app_length; cbn [length]; lia); apply deref_alloc_new).
    assert (K2 : keeps kb vb h h2) by (unfold h2, h1, h0; auto 6).
    assert (K3 : keeps kb vb h h3) by (unfold h3; auto).
    assert (L3 : length h3 = S (S (length h))) by (unfold h3, h2; rewrite !set_cell_length, app_length, L1; cbn [length]; lia).
    rewrite Dka, (proj1 (proj2 (Hst h2 K2 k))), L0, L1. pose proof (remove_entry_incl h st k) as Hsub.
    split; [exact (WInv_put w h3 _ HI L3 Hsub)|]. split; [|auto]. rewrite w_abs_of. cbn [w_heap w_store].
    rewrite abs_of_cons, (proj1 (Hst h3 K3 k) _ Hsub), remove_entry_abs.
    unfold h3. rewrite !deref_set_other by lia. rewrite <- L0 at 1. rewrite Dka. rewrite <- L1. unfold h2. rewrite deref_alloc_new. reflexivity.
  - rewrite D0. set (h1 := set_cell (set_cell h kb k) kb jk).
    assert (K1 : keeps kb vb h h1) by (unfold h1; auto).
    rewrite (proj1 (proj2 (Hst _ (keeps_set kb vb h h kb k (keeps_refl _ _ _) (or_introl eq_refl)) k))).
    pose proof (remove_entry_incl h st k) as Hsub.
    split; [exact (WInv_mono w h1 _ HI (proj1 K1) Hsub)|]. split; [|auto]. rewrite w_abs_of. cbn [w_heap w_store].
    rewrite (proj1 (Hst h1 K1 k) _ Hsub). apply remove_entry_abs.
  - rewrite D0. set (h0 := set_cell h kb k). assert (K0 : keeps kb vb h h0) by (unfold h0; auto).
    rewrite (proj2 (proj2 (Hst h0 K0 k))). pose proof (find_entry_abs h st k) as Hf.
    destruct (find_entry h st k) as [[ka va]|]; cbn [w_heap w_store w_kbuf w_vbuf].
    + destruct Hf as [Hv0 [kb' Hin]]. unfold alloc. cbn [fst snd]. rewrite deref_alloc_new.
      assert (L0 : length h0 = length h) by (unfold h0; apply set_cell_length).
      set (h2 := set_cell (set_cell (h0 ++ [deref h0 va]) (length h0) poison) kb jk).
      assert (K2 : keeps kb vb h h2) by (unfold h2; apply keeps_set; [apply keeps_set; [auto|lia]|auto]).
      assert (L2 : length h2 = S (length h)) by (unfold h2; rewrite !set_cell_length, app_length, L0; cbn [length]; lia).
      rewrite L0. split; [exact (WInv_get w h2 HI L2)|]. split; [exact (proj1 (Hst h2 K2 k) _ (incl_refl _))|].
      split; [|auto]. rewrite Hv0. f_equal. exact (proj2 (keeps_store w h0 HI K0 kb' va Hin)).
    + set (h1 := set_cell h0 kb jk). assert (K1 : keeps kb vb h h1) by (unfold h1; auto).
      split; [exact (WInv_mono w h1 _ HI (proj1 K1) (incl_refl _))|]. split; [exact (proj1 (Hst h1 K1 k) _ (incl_refl _))|]. auto.
Qed.

Lemma w_init_inv : WInv w_init.
Proof.
  unfold WInv, w_init. cbn. split; [lia|]. split; [lia|]. split; [lia|]. split; [intros ? ? []|intros ? []].
Qed.

Theorem hrun_ok : forall ops w w' rs,
  WInv w -> hrun w ops = (w', rs) ->
  WInv w' /\ rs = snd (vrun (w_abs w) ops) /\ w_abs w' = fst (vrun (w_abs w) ops) /\
  keeps (w_kbuf w) (w_vbuf w) (w_heap w) (w_heap w').
Proof.
  induction ops as [|o ops IH]; intros w w' rs HI H; cbn [hrun vrun] in *.
  - injection H as <- <-. auto using keeps_refl.
  - pose proof (hstep_ok w o HI) as Hs. unfold step_ok in Hs. destruct (hstep w o) as [w1 x].
    destruct Hs as (HI1 & Habs & Hx & Hkeep & Ek & Ev). destruct (hrun w1 ops) as [w2 xs] eqn:E2. injection H as <- <-.
    destruct (IH w1 w2 xs HI1 E2) as (HI2 & Hxs & Habs2 & Hkeep2). rewrite Ek, Ev in Hkeep2.
    destruct (vstep (w_abs w) o) as [m1 y]. cbn [fst snd] in *. subst m1 y.
    destruct (vrun (w_abs w1) ops) as [m2 ys]. cbn [fst snd] in *. subst.
    split; [exact HI2|]. split; [reflexivity|]. split; [reflexivity|]. exact (keeps_trans _ _ _ _ _ Hkeep Hkeep2).
Qed.
