(* EngineBatch.v — batches: staging, flushes (several records in one write), Commit. *)
From Coq Require Import ZArith Lia ZifyN ZifyNat ZifyBool Sorting.Sorted.
From KV Require Import Bytes GenConsts Chunk Record Engine Script BytesLemmas AMapLemmas ListLemmas
  EngineFiles EngineOps EngineInv EngineLog.
Open Scope N_scope.

(* the staged records go to the file tagged with the batch id *)
Definition tag (id : N) (r : record) : record := mkRec (r_type r) (r_key r) (r_value r) id.

Lemma batch_flush_shape d b d' b' evs : batch_flush d b = (d', b', evs) ->
  b' = mkBatch [] 0 (b_committed b) (b_sync b) (b_id b) /\
  exists d1 ev1 a ps ev2,
    (if (0 <? lf_size (d_active d)) && (c_fsize (d_cfg d) <? lf_size (d_active d) + b_cached b + maxFinRecord)
     then db_rotate d else (d, [])) = (d1, ev1) /\
    lf_append_all (io_of d1) (FData (d_active_id d1)) (d_active_id d1) (d_active d1) (map (tag (b_id b)) (b_staged b))
      = (a, ps, ev2) /\
    d' = apply_staged (set_active d1 (d_active_id d1) (if b_sync b then synced a else a))
           (combine (map (tag (b_id b)) (b_staged b)) ps).
Proof.
  unfold batch_flush. intros H.
  destruct (if (0 <? lf_size (d_active d)) && _ then db_rotate d else (d, [])) as [d1 ev1].
  fold (tag (b_id b)) in H.
  destruct (lf_append_all _ _ _ _ _) as [[a ps] ev2] eqn:Hla.
  pose proof (if_sync_fst (b_sync b) (FData (d_active_id d1)) a) as Hs.
  destruct (if b_sync b then h_sync _ a else (a, [])) as [a' ev3]. cbn [fst] in Hs. subst a'. injection H as <- <- _.
  split; [reflexivity|]. exists d1, ev1, a, ps, ev2. auto.
Qed.
Lemma batch_flush_rotate_shape d b d' b' evs : batch_flush_rotate d b = (d', b', evs) ->
  exists d1 ev1, batch_flush d b = (d1, b', ev1) /\ d' = rotated d1.
Proof.
  unfold batch_flush_rotate. destruct (batch_flush d b) as [[d1 b1] ev1].
  pose proof (db_rotate_fst d1) as Hr. destruct (db_rotate d1) as [d2 ev2]. cbn [fst] in Hr. intros [= <- <- _]. eauto.
Qed.

Lemma batch_get_touched d b k d' r evs : batch_get d b k = (d', r, evs) -> touched d d'.
Proof.
  unfold batch_get. destruct (len k =? 0); [intros [= <- _ _]; apply touched_refl|].
  destruct (b_committed b); [intros [= <- _ _]; apply touched_refl|].
  destruct (staged_find (b_staged b) k) as [r0|]; [destruct (r_type r0 =? rt_Deleted); intros [= <- _ _]; apply touched_refl|].
  destruct (idx_get (d_index d) k) as [p|]; [apply db_read_touched|intros [= <- _ _]; apply touched_refl].
Qed.

(* the record [new] is accepted: the staged records are flushed first and it is staged alone; or it is staged at the
   end; or it replaces the record staged for its key, and then Q relates that record and the new cache counter *)
Definition staged_as (d : db) (b : batch) (new : record) (Q : record -> N -> Prop) (d' : db) (b' : batch) (evs : list event) : Prop :=
  let est := disk_size_estimate (len (r_key new)) (len (r_value new)) in
  (batch_flush_rotate d b = (d', mkBatch [] 0 false (b_sync b) (b_id b), evs) /\
   b' = mkBatch [new] est false (b_sync b) (b_id b)) \/
  (d' = d /\ evs = [] /\
   ((staged_find (b_staged b) (r_key new) = None /\ (c_fsize (d_cfg d) <? b_cached b + est + maxFinRecord) = false /\
     b' = with_staged b (b_staged b ++ [new]) (b_cached b + est)) \/
    (exists r c, staged_find (b_staged b) (r_key new) = Some r /\ Q r c /\
       b' = with_staged b (staged_update (b_staged b) (r_key new) (fun r => mkRec (r_type new) (r_key r) (r_value new) 0)) c))).

Lemma staged_as_db d b new Q d' b' evs : staged_as d b new Q d' b' evs ->
  b_id b' = b_id b /\ ((d' = d /\ evs = []) \/ exists b1, batch_flush_rotate d b = (d', b1, evs)).
Proof. intros [(H & ->)|(-> & -> & [(_ & _ & ->)|(r & c & _ & _ & ->)])]; eauto. Qed.

Lemma batch_put_cases d b k v d' b' e evs : batch_put d b k v = (d', b', e, evs) ->
  (d' = d /\ b' = b /\ evs = [] /\
   (((len k =? 0) = true /\ e = Some EKeyIsEmpty) \/
    ((len k =? 0) = false /\ b_committed b = true /\ e = Some EBatchCommitted))) \/
  ((len k =? 0) = false /\ b_committed b = false /\ e = None /\
   staged_as d b (mkRec rt_Normal k v 0)
     (fun r c => c = b_cached b + disk_size_estimate (len k) (len v) - disk_size_estimate (len (r_key r)) (len (r_value r)) /\
                 (c_fsize (d_cfg d) <? c + maxFinRecord) = false) d' b' evs).
Proof.
  unfold batch_put, staged_as. cbn [r_key r_type r_value]. intros H.
  destruct (len k =? 0); [injection H as <- <- <- <-; left; auto 10|].
  destruct (b_committed b) eqn:Ec; [injection H as <- <- <- <-; left; auto 10|]. right.
  split; [reflexivity|]. split; [reflexivity|].
  (* the batch that comes back from a flush is empty *)
  assert (Hfl : forall d1 b1 ev1, batch_flush_rotate d b = (d1, b1, ev1) -> b1 = mkBatch [] 0 false (b_sync b) (b_id b)).
  { intros d1 b1 ev1 Hf. destruct (batch_flush_rotate_shape _ _ _ _ _ Hf) as (d0 & ev0 & Hf0 & _).
    destruct (batch_flush_shape _ _ _ _ _ Hf0) as [-> _]. rewrite Ec. reflexivity. }
  destruct (staged_find (b_staged b) k) as [r|].
  - destruct (c_fsize (d_cfg d) <? _) eqn:Eb.
    + destruct (batch_flush_rotate d b) as [[d1 b1] ev1] eqn:Hf. rewrite (Hfl _ _ _ eq_refl) in *.
      injection H as <- <- <- <-. auto.
    + injection H as <- <- <- <-. split; [reflexivity|]. right. eauto 10.
  - destruct (c_fsize (d_cfg d) <? _) eqn:Eb.
    + destruct (batch_flush_rotate d b) as [[d1 b1] ev1] eqn:Hf. rewrite (Hfl _ _ _ eq_refl) in *.
      injection H as <- <- <- <-. auto.
    + injection H as <- <- <- <-. split; [reflexivity|]. right. auto 10.
Qed.
Lemma batch_put_db d b k v d' b' e evs : batch_put d b k v = (d', b', e, evs) ->
  b_id b' = b_id b /\ ((d' = d /\ evs = []) \/ exists b1, batch_flush_rotate d b = (d', b1, evs)).
Proof. intros H. destruct (batch_put_cases _ _ _ _ _ _ _ _ H) as [(-> & -> & -> & _)|(_ & _ & _ & Hs)]; [auto|exact (staged_as_db _ _ _ _ _ _ _ Hs)]. Qed.

Lemma batch_delete_cases d b k d' b' e evs : batch_delete d b k = (d', b', e, evs) ->
  (d' = d /\ b' = b /\ evs = [] /\
   (((len k =? 0) = true /\ e = Some EKeyIsEmpty) \/
    ((len k =? 0) = false /\ b_committed b = true /\ e = Some EBatchCommitted) \/
    ((len k =? 0) = false /\ b_committed b = false /\ e = None /\
     staged_find (b_staged b) k = None /\ idx_get (d_index d) k = None))) \/
  ((len k =? 0) = false /\ b_committed b = false /\ e = None /\
   staged_as d b (mkRec rt_Deleted k [] 0) (fun r c => c = b_cached b + len (r_value r)) d' b' evs).
Proof.
  unfold batch_delete, staged_as. cbn [r_key r_type r_value len]. intros H.
  destruct (len k =? 0); [injection H as <- <- <- <-; left; auto 10|].
  destruct (b_committed b) eqn:Ec; [injection H as <- <- <- <-; left; auto 10|].
  destruct (staged_find (b_staged b) k) as [r|].
  { injection H as <- <- <- <-. right. do 3 (split; [reflexivity|]). right. do 2 (split; [reflexivity|]). right. eauto. }
  destruct (idx_get (d_index d) k) as [p|]; [|injection H as <- <- <- <-; left; auto 10].
  right. destruct (c_fsize (d_cfg d) <? _) eqn:Eb.
  - destruct (batch_flush_rotate d b) as [[d1 b1] ev1] eqn:Hf.
    destruct (batch_flush_rotate_shape _ _ _ _ _ Hf) as (d0 & ev0 & Hf0 & _).
    destruct (batch_flush_shape _ _ _ _ _ Hf0) as [-> _]. rewrite Ec in *. injection H as <- <- <- <-.
    do 3 (split; [reflexivity|]). left. split; reflexivity.
  - injection H as <- <- <- <-. do 3 (split; [reflexivity|]). right. split; [reflexivity|]. split; [reflexivity|].
    left. split; [reflexivity|]. split; reflexivity.
Qed.
Lemma batch_delete_db d b k d' b' e evs : batch_delete d b k = (d', b', e, evs) ->
  b_id b' = b_id b /\ ((d' = d /\ evs = []) \/ exists b1, batch_flush_rotate d b = (d', b1, evs)).
Proof. intros H. destruct (batch_delete_cases _ _ _ _ _ _ _ H) as [(-> & -> & -> & _)|(_ & _ & _ & Hs)]; [auto|exact (staged_as_db _ _ _ _ _ _ _ Hs)]. Qed.

Lemma run_bops_db (P : N -> db -> Prop) :
  (forall d b d' b' evs, P (b_id b) d -> batch_flush_rotate d b = (d', b', evs) -> P (b_id b) d') ->
  (forall id d d', touched d d' -> P id d -> P id d') ->
  forall bops d b d' b' rs evs, P (b_id b) d -> run_bops d b bops = (d', b', rs, evs) -> P (b_id b) d' /\ b_id b' = b_id b.
Proof.
  intros Hfl Ht bops d b d' b' rs evs HP Hr.
  apply (run_bops_ind (fun d1 b1 => P (b_id b) d1 /\ b_id b1 = b_id b)) with (5 := Hr); [| | |auto].
  - intros d0 b0 k v d1 b1 e ev [A E] H. rewrite <- E in *.
    destruct (batch_put_db _ _ _ _ _ _ _ _ H) as [Eid [[-> _]|[b2 Hf]]]; eauto.
  - intros d0 b0 k d1 b1 e ev [A E] H. rewrite <- E in *.
    destruct (batch_delete_db _ _ _ _ _ _ _ H) as [Eid [[-> _]|[b2 Hf]]]; eauto.
  - intros d0 b0 k d1 r ev [A E] H. exact (conj (Ht _ _ _ (batch_get_touched _ _ _ _ _ _ H) A) E).
Qed.

(* the batch-finished record: its key is the decimal batch id (snowflake ID.Bytes()) *)
Definition seal (id : N) : record := mkRec rt_BatchFinished (dec_digits id) [] id.

Lemma batch_commit_cases d b d' b' e evs : batch_commit d b = (d', b', e, evs) ->
  (b_committed b = true /\ d' = d /\ b' = b /\ e = Some EBatchCommitted /\ evs = []) \/
  (b_committed b = false /\ e = None /\ b_committed b' = true /\
   ((b_staged b = [] /\ d' = d /\ evs = []) \/
    (b_staged b <> [] /\ exists d1 b1 ev1 a p ev2,
       batch_flush d (mkBatch (b_staged b) (b_cached b) true (b_sync b) (b_id b)) = (d1, b1, ev1) /\
       lf_append (io_of d1) (FData (d_active_id d1)) (d_active_id d1) (d_active d1) (seal (b_id b)) = (a, p, ev2) /\
       d' = set_active d1 (d_active_id d1) (if b_sync b then synced a else a)))).
Proof.
  unfold batch_commit. intros H. destruct (b_committed b); [injection H as <- <- <- <-; left; auto|]. right.
  split; [reflexivity|]. destruct (b_staged b) as [|r0 rs] eqn:Est; [injection H as <- <- <- <-; auto 10|].
  rewrite <- Est in H |- *.
  destruct (batch_flush d _) as [[d1 b1] ev1] eqn:Hf. fold (seal (b_id b)) in H.
  destruct (lf_append _ _ _ _ (seal (b_id b))) as [[a p] ev2] eqn:Hla.
  pose proof (if_sync_fst (b_sync b) (FData (d_active_id d1)) a) as Hs.
  destruct (if b_sync b then h_sync _ a else (a, [])) as [a' ev3]. cbn [fst] in Hs. subst a'. injection H as <- <- <- _.
  destruct (batch_flush_shape _ _ _ _ _ Hf) as [-> _].
  split; [reflexivity|]. split; [reflexivity|]. right. split; [rewrite Est; discriminate|].
  eexists d1, _, ev1, a, p, ev2. auto.
Qed.

Lemma batch_flush_is_grows d b d' b' evs : batch_flush d b = (d', b', evs) ->
  exists ps, length ps = length (b_staged b) /\ grows d d' (combine (map (tag (b_id b)) (b_staged b)) ps).
Proof.
  intros H. destruct (batch_flush_shape _ _ _ _ _ H) as (_ & d1 & ev1 & a & ps & ev2 & Hrot & Hla & ->).
  destruct (lf_append_all_fields _ _ _ _ _ _ _ _ Hla) as (Hr & Hlen & _). rewrite map_length in Hlen.
  exists ps. split; [exact Hlen|].
  destruct (apply_staged_index_only (combine (map (tag (b_id b)) (b_staged b)) ps)
              (set_active d1 (d_active_id d1) (if b_sync b then synced a else a))) as (ix & t & rc & ->).
  apply (grows_append d d1 _ _ (maybe_rotate_grows _ _ _ _ Hrot)); cbn [set_active d_active_id d_older d_active]; try reflexivity.
  rewrite (proj1 (if_synced_fields _ a)). exact Hr.
Qed.

Lemma batch_flush_log d b d' b' evs :
  InvF d -> InvO d -> InvP d -> batch_flush d b = (d', b', evs) ->
  log d' = log d ++ map (tag (b_id b)) (b_staged b) /\ InvF d' /\ InvO d' /\ InvP d' /\ extends d d'.
Proof.
  intros HF HO HP Hfl. destruct (batch_flush_is_grows _ _ _ _ _ Hfl) as (ps & Hlen & Hg).
  assert (Hfst : map fst (combine (map (tag (b_id b)) (b_staged b)) ps) = map (tag (b_id b)) (b_staged b)).
  { clear - Hlen. revert ps Hlen. induction (b_staged b) as [|r rs IH]; intros [|q ps] H; try discriminate; [reflexivity|].
    cbn [map combine fst]. rewrite IH by (injection H; auto). reflexivity. }
  rewrite <- Hfst.
  destruct (batch_flush_shape _ _ _ _ _ Hfl) as (_ & d1 & ev1 & a & ps' & ev2 & Hrot & Hla & E). rewrite E in *.
  destruct (apply_staged_index_only (combine (map (tag (b_id b)) (b_staged b)) ps')
              (set_active d1 (d_active_id d1) (if b_sync b then synced a else a))) as (ix & t & rc & E').
  rewrite E' in *.
  destruct (maybe_rotate_active _ _ _ _ HF HP Hrot) as [Hwf1 Hp1].
  destruct (lf_append_all_ok _ _ _ _ _ _ _ _ Hwf1 Hp1 Hla) as [Hwfa Hpa].
  destruct (if_synced_fields (b_sync b) a) as (E1 & E2 & _).
  (* what is left: the new active file is well formed and holds its records at their positions *)
  apply (grows_spec d _ _ HF HO HP Hg); cbn [set_active d_active_id d_active].
  - exact (wf_lfile_same _ _ E1 E2 Hwfa).
  - exact (pos_ok_same _ _ _ E1 Hpa).
Qed.

Lemma batch_flush_rotate_log d b d' b' evs :
  InvF d -> InvO d -> InvP d -> batch_flush_rotate d b = (d', b', evs) ->
  log d' = log d ++ map (tag (b_id b)) (b_staged b) /\ InvF d' /\ InvO d' /\ InvP d'.
Proof.
  intros HF HO HP H. destruct (batch_flush_rotate_shape _ _ _ _ _ H) as (d1 & ev1 & Hfl & ->).
  destruct (batch_flush_log _ _ _ _ _ HF HO HP Hfl) as (L1 & F1 & O1 & P1 & _).
  destruct (db_rotate d1) as [d2 ev2] eqn:Hrot. rewrite <- (db_rotate_inv _ _ _ Hrot).
  destruct (db_rotate_log _ _ _ F1 O1 P1 Hrot) as (L2 & F2 & O2 & P2 & _). rewrite L2. auto.
Qed.

Lemma rec_apply_sorted m r : sorted m -> sorted (rec_apply m r).
Proof. intros H. unfold rec_apply. destruct (r_type r =? rt_Deleted); [apply amap_del_sorted|apply amap_put_sorted]; exact H. Qed.
Lemma s_apply_recs_sorted rs : forall m, sorted m -> sorted (s_apply_recs m rs).
Proof. induction rs as [|r rs IH]; intros m H; cbn [s_apply_recs fold_left]; [exact H|].
  apply IH. apply rec_apply_sorted. exact H. Qed.
Lemma s_apply_recs_app m a b : s_apply_recs m (a ++ b) = s_apply_recs (s_apply_recs m a) b.
Proof. unfold s_apply_recs. apply fold_left_app. Qed.

Lemma R_sorted d m : Inv d -> R d m -> sorted m.
Proof. intros [_ [Hs _]] HR. eapply amap_rel_sorted; eassumption. Qed.

Lemma apply_staged_spec : forall rps d m,
  Inv d -> R d m ->
  (forall r p, In (r, p) rps -> exists r', rec_at d p = Some r' /\ r_key r' = r_key r /\ r_value r' = r_value r /\ r_type r' = r_type r) ->
  Inv (apply_staged d rps) /\ R (apply_staged d rps) (s_apply_recs m (map fst rps)).
Proof.
  induction rps as [|[r p] rps IH]; intros d m HI HR Hall; [auto|].
  rewrite apply_staged_cons_idx_upd. cbn [map fst s_apply_recs fold_left].
  destruct (Hall r p (or_introl eq_refl)) as (r' & Hp & Hk & Hv & Hty).
  destruct (Inv_R_index d m r p r' HI HR Hp Hk Hv Hty) as [HI1 HR1].
  apply IH; [exact HI1|exact HR1|]. intros r0 p0 Hin. destruct (Hall r0 p0 (or_intror Hin)) as (r0' & H1 & H2).
  exists r0'. split; [|exact H2]. rewrite <- H1. exact (rec_at_index_only _ _ (idx_upd_index_only d r p) p0).
Qed.

Lemma s_apply_recs_tag id rs : forall m, s_apply_recs m (map (tag id) rs) = s_apply_recs m rs.
Proof. induction rs as [|r rs IH]; intros m; cbn [map s_apply_recs fold_left]; [reflexivity|].
  change (fold_left rec_apply (map (tag id) rs) (rec_apply m (tag id r))) with (s_apply_recs (rec_apply m (tag id r)) (map (tag id) rs)).
  rewrite IH. reflexivity. Qed.

Lemma active_append_Inv d m a out :
  Inv d -> R d m -> wf_lfile a -> lf_recs a = lf_recs (d_active d) ++ out ->
  Inv (set_active d (d_active_id d) a) /\ R (set_active d (d_active_id d) a) m.
Proof.
  intros HI HR Hwf Hr.
  assert (Hext : extends d (set_active d (d_active_id d) a)).
  { intros q x Hq. rewrite rec_at_set_active. destruct (p_fid q =? d_active_id d) eqn:E; [|exact Hq].
    unfold rec_at, file_of in Hq. rewrite E in Hq. rewrite Hr, lookup_app_gen, Hq. reflexivity. }
  split; [exact (Inv_extends _ _ HI (InvF_set_active d a (proj1 HI) Hwf) Hext eq_refl)|].
  exact (R_extends _ _ m Hext eq_refl HR).
Qed.

Theorem batch_flush_spec d m b d' b' evs :
  Inv d -> R d m -> batch_flush d b = (d', b', evs) ->
  Inv d' /\ R d' (s_apply_recs m (b_staged b)).
Proof.
  intros HI HR Hfl. destruct (batch_flush_shape _ _ _ _ _ Hfl) as (_ & d1 & ev1 & a & ps & ev2 & Hrot & Hla & ->).
  assert (H1 : InvF d1 /\ same_recs d d1).
  { apply (maybe_rotate_ind (fun x => InvF x /\ same_recs d x) _ _ _ _ Hrot).
    - split; [exact (proj1 HI)|apply same_recs_refl].
    - intros d2 e Hr. destruct (db_rotate_spec d d2 e (proj1 HI) Hr) as (A & B & C & _).
      split; [exact A|split; assumption]. }
  destruct H1 as (HF1 & Hsame1).
  pose proof (Inv_same d d1 HI HF1 Hsame1) as HI1. pose proof (R_same d d1 m Hsame1 HR) as HR1.
  set (tagged := map (tag (b_id b)) (b_staged b)) in *.
  destruct (lf_append_all_spec _ _ _ _ _ _ _ _ (proj1 HF1) Hla) as (out & Hrecs & Hmapf & Hmaps & Hwfa & Hfresh & Hnth & _).
  set (a' := if b_sync b then synced a else a). destruct (if_synced_fields (b_sync b) a) as (Ha'1 & Ha'2 & _). fold a' in Ha'1, Ha'2.
  set (d2 := set_active d1 (d_active_id d1) a').
  destruct (active_append_Inv d1 m a' out HI1 HR1 (wf_lfile_same _ _ Ha'1 Ha'2 Hwfa)) as (HI2 & HR2);
    [rewrite Ha'1; exact Hrecs|]. fold d2 in HI2, HR2.
  assert (Hcomb : combine tagged ps = out) by (rewrite <- Hmapf, <- Hmaps; apply combine_fst_snd).
  rewrite Hcomb.
  destruct (apply_staged_spec out d2 m HI2 HR2) as (HI3 & HR3).
  - (* every new record is found at its position *)
    intros r p Hin. exists r. destruct (In_nth_error _ _ Hin) as [i Hi]. destruct (Hfresh r p Hin) as [Hfid Hnone].
    split; [|auto]. unfold d2. rewrite rec_at_set_active, Hfid, N.eqb_refl, Ha'1, Hrecs, lookup_app_gen, Hnone. exact (Hnth i r p Hi).
  - rewrite Hmapf in HR3. unfold tagged in HR3. rewrite s_apply_recs_tag in HR3.
    split; [exact HI3|exact HR3].
Qed.

Lemma batch_flush_rotate_spec d m b d' b' evs :
  Inv d -> R d m -> batch_flush_rotate d b = (d', b', evs) ->
  Inv d' /\ R d' (s_apply_recs m (b_staged b)).
Proof.
  intros HI HR H. destruct (batch_flush_rotate_shape _ _ _ _ _ H) as (d1 & ev1 & Hfl & ->).
  destruct (batch_flush_spec _ _ _ _ _ _ HI HR Hfl) as (HI1 & HR1). rewrite <- db_rotate_fst.
  destruct (db_rotate_spec d1 _ _ (proj1 HI1) (surjective_pairing _)) as (A & B & C & _).
  assert (Hs : same_recs d1 (fst (db_rotate d1))) by (split; assumption).
  split; [eapply Inv_same; eassumption|eapply R_same; eassumption].
Qed.

Theorem batch_commit_spec d m b d' b' e evs :
  Inv d -> R d m -> b_committed b = false -> batch_commit d b = (d', b', e, evs) ->
  Inv d' /\ R d' (s_apply_recs m (b_staged b)) /\ e = None.
Proof.
  intros HI HR Hnc Hc.
  destruct (batch_commit_cases _ _ _ _ _ _ Hc)
    as [(Hc' & _)|(_ & -> & Hb' & [(-> & -> & _)|(_ & d1 & b1 & ev1 & a & p & ev2 & Hfl & Hla & ->)])]; [congruence|auto|].
  destruct (batch_flush_spec _ _ _ _ _ _ HI HR Hfl) as (HI1 & HR1). cbn [b_staged] in HR1.
  destruct (lf_append_spec _ _ _ _ _ _ _ _ (proj1 (proj1 HI1)) Hla) as (Hwfa & Hrecs & _).
  destruct (if_synced_fields (b_sync b) a) as (Ha'1 & Ha'2 & _).
  destruct (active_append_Inv d1 _ _ [(seal (b_id b), p)] HI1 HR1 (wf_lfile_same _ _ Ha'1 Ha'2 Hwfa)) as (HI2 & HR2);
    [rewrite Ha'1; exact Hrecs|]. auto.
Qed.

(* ---- the batch's view while staging --------------------------------------------------------- *)
Definition rec_view (r : record) : option bytes := if r_type r =? rt_Deleted then None else Some (r_value r).
Definition staged_view (st : list record) (md : smap) (k : bytes) : option bytes :=
  match staged_find st k with Some r => rec_view r | None => amap_get md k end.

Lemma rec_apply_view m r k' : sorted m ->
  amap_get (rec_apply m r) k' = if bytes_eqb (r_key r) k' then rec_view r else amap_get m k'.
Proof.
  intros Hs. unfold rec_apply, rec_view. rewrite (bytes_eqb_sym (r_key r) k'). destruct (r_type r =? rt_Deleted).
  - rewrite amap_get_del by exact Hs. reflexivity.
  - rewrite amap_get_put. reflexivity.
Qed.

Lemma staged_find_in st k r : staged_find st k = Some r -> In r st /\ r_key r = k.
Proof.
  induction st as [|r0 st IH]; cbn [staged_find]; [discriminate|].
  destruct (bytes_eqb (r_key r0) k) eqn:E.
  - intros [= ->]. apply bytes_eqb_eq in E. split; [left; reflexivity|exact E].
  - intros H. destruct (IH H). split; [right; assumption|assumption].
Qed.
Lemma staged_find_none st k : staged_find st k = None -> ~ In k (map r_key st).
Proof.
  induction st as [|r0 st IH]; cbn [staged_find map]; [intros _ []|].
  destruct (bytes_eqb (r_key r0) k) eqn:E; [discriminate|].
  intros H [Heq|Hin]; [apply bytes_eqb_neq in E; contradiction|exact (IH H Hin)].
Qed.
Lemma staged_find_notin st k : ~ In k (map r_key st) -> staged_find st k = None.
Proof.
  induction st as [|r0 st IH]; cbn [staged_find map]; [reflexivity|].
  intros H. destruct (bytes_eqb (r_key r0) k) eqn:E.
  - apply bytes_eqb_eq in E. exfalso. apply H. left. exact E.
  - apply IH. intros Hin. apply H. right. exact Hin.
Qed.
Lemma staged_find_app st r k :
  staged_find (st ++ [r]) k =
    match staged_find st k with Some x => Some x | None => if bytes_eqb (r_key r) k then Some r else None end.
Proof.
  induction st as [|r0 st IH]; cbn [app staged_find]; [reflexivity|].
  destruct (bytes_eqb (r_key r0) k); [reflexivity|exact IH].
Qed.
Lemma staged_update_keys st k f : (forall r, r_key (f r) = r_key r) ->
  map r_key (staged_update st k f) = map r_key st.
Proof.
  intros Hf. induction st as [|r0 st IH]; cbn [staged_update map]; [reflexivity|].
  destruct (bytes_eqb (r_key r0) k); cbn [map]; [rewrite Hf|rewrite IH]; reflexivity.
Qed.
Lemma staged_find_update st k f k' : (forall r, r_key (f r) = r_key r) ->
  staged_find (staged_update st k f) k' =
    if bytes_eqb k' k then option_map f (staged_find st k) else staged_find st k'.
Proof.
  intros Hf. induction st as [|r0 st IH]; cbn [staged_update staged_find].
  - destruct (bytes_eqb k' k); reflexivity.
  - destruct (bytes_eqb (r_key r0) k) eqn:E.
    + cbn [staged_find]. rewrite Hf. pose proof (proj1 (bytes_eqb_eq _ _) E) as Ek.
      destruct (bytes_eqb k' k) eqn:E2.
      * apply bytes_eqb_eq in E2. subst k'. rewrite E. reflexivity.
      * rewrite Ek. rewrite bytes_eqb_sym, E2. reflexivity.
    + cbn [staged_find]. destruct (bytes_eqb (r_key r0) k') eqn:E3.
      * destruct (bytes_eqb k' k) eqn:E2; [|reflexivity].
        apply bytes_eqb_eq in E2. apply bytes_eqb_eq in E3. apply bytes_eqb_neq in E. congruence.
      * exact IH.
Qed.

Lemma apply_view : forall st md k, sorted md -> NoDup (map r_key st) ->
  amap_get (s_apply_recs md st) k = staged_view st md k.
Proof.
  induction st as [|r st IH]; intros md k Hs Hnd; cbn [s_apply_recs fold_left]; [reflexivity|].
  change (fold_left rec_apply st (rec_apply md r)) with (s_apply_recs (rec_apply md r) st).
  cbn [map] in Hnd. inversion Hnd as [|x l Hnotin Hnd']; subst.
  rewrite IH by (try apply rec_apply_sorted; assumption).
  unfold staged_view. cbn [staged_find].
  destruct (bytes_eqb (r_key r) k) eqn:E.
  - apply bytes_eqb_eq in E. subst k. rewrite (staged_find_notin st (r_key r) Hnotin).
    rewrite rec_apply_view by exact Hs. rewrite bytes_eqb_refl. reflexivity.
  - destruct (staged_find st k); [reflexivity|].
    rewrite rec_apply_view by exact Hs. rewrite E. reflexivity.
Qed.

(* md is what the database denotes (flushed records included), mcur what the batch sees: md overlaid with the
   staged records, one per key *)
Definition BRel (d : db) (b : batch) (mcur : smap) : Prop :=
  exists md, R d md /\ sorted mcur /\ NoDup (map r_key (b_staged b)) /\
             (forall k, amap_get mcur k = staged_view (b_staged b) md k) /\ b_committed b = false.

Lemma BRel_start d m sync id : Inv d -> R d m -> BRel d (new_batch sync id) m.
Proof. intros HI HR. exists m. split; [exact HR|]. split; [eapply R_sorted; eassumption|].
  split; [constructor|]. split; [reflexivity|reflexivity]. Qed.

Lemma BRel_flush d b mcur md : Inv d -> R d md -> sorted mcur -> NoDup (map r_key (b_staged b)) ->
  (forall k, amap_get mcur k = staged_view (b_staged b) md k) ->
  s_apply_recs md (b_staged b) = mcur.
Proof.
  intros HI HR Hs Hnd Hv. apply sorted_ext.
  - apply s_apply_recs_sorted. eapply R_sorted; eassumption.
  - exact Hs.
  - intros k. rewrite Hv. apply apply_view; [eapply R_sorted; eassumption|exact Hnd].
Qed.

Theorem batch_commit_view d b mcur d' b' e evs :
  Inv d -> BRel d b mcur -> batch_commit d b = (d', b', e, evs) ->
  Inv d' /\ R d' mcur /\ e = None.
Proof.
  intros HI (md & HR & Hs & Hnd & Hv & Hnc) Hc.
  destruct (batch_commit_spec _ _ _ _ _ _ _ HI HR Hnc Hc) as (HI' & HR' & He).
  rewrite (BRel_flush d b mcur md HI HR Hs Hnd Hv) in HR'. auto.
Qed.

(* ---- Batch.Put / Delete / Get --------------------------------------------------------------- *)
Lemma BRel_single d b0 md r mnew :
  Inv d -> R d md -> sorted mnew ->
  (forall k', amap_get mnew k' = if bytes_eqb (r_key r) k' then rec_view r else amap_get md k') ->
  b_committed b0 = false ->
  BRel d (with_staged b0 [r] (b_cached b0 + 0)) mnew.
Proof.
  intros HI HR Hs Hv Hnc. exists md. split; [exact HR|]. split; [exact Hs|].
  split; [cbn; constructor; [intros []|constructor]|]. split; [|exact Hnc].
  intros k'. rewrite Hv. unfold staged_view. cbn [with_staged b_staged staged_find].
  destruct (bytes_eqb (r_key r) k'); reflexivity.
Qed.

Lemma BRel_stage d b mcur r c :
  BRel d b mcur -> staged_find (b_staged b) (r_key r) = None ->
  BRel d (with_staged b (b_staged b ++ [r]) c) (rec_apply mcur r).
Proof.
  intros (md & HR & Hs & Hnd & Hv & Hnc) Ef. exists md. split; [exact HR|]. split; [apply rec_apply_sorted; exact Hs|].
  cbn [with_staged b_staged b_committed]. split; [|split; [|exact Hnc]].
  - rewrite map_app. cbn [map]. apply NoDup_app_single; [exact Hnd|apply staged_find_none; exact Ef].
  - intros k'. rewrite rec_apply_view by exact Hs. unfold staged_view. rewrite staged_find_app.
    specialize (Hv k'). unfold staged_view in Hv. destruct (bytes_eqb (r_key r) k') eqn:E.
    + apply bytes_eqb_eq in E. subst k'. rewrite Ef. reflexivity.
    + destruct (staged_find (b_staged b) k'); exact Hv.
Qed.
Lemma BRel_restage d b mcur k f r0 c :
  BRel d b mcur -> staged_find (b_staged b) k = Some r0 -> (forall r, r_key (f r) = r_key r) ->
  BRel d (with_staged b (staged_update (b_staged b) k f) c) (rec_apply mcur (f r0)).
Proof.
  intros (md & HR & Hs & Hnd & Hv & Hnc) Ef Hf. destruct (staged_find_in _ _ _ Ef) as [_ Hk].
  exists md. split; [exact HR|]. split; [apply rec_apply_sorted; exact Hs|]. cbn [with_staged b_staged b_committed].
  split; [rewrite (staged_update_keys _ _ _ Hf); exact Hnd|]. split; [|exact Hnc].
  intros k'. rewrite rec_apply_view by exact Hs. unfold staged_view.
  rewrite (staged_find_update _ _ _ k' Hf), Ef, Hf, Hk, (bytes_eqb_sym k k'). cbn [option_map].
  destruct (bytes_eqb k' k); [reflexivity|]. exact (Hv k').
Qed.
Lemma BRel_flushed d b mcur r d1 b1 ev1 c :
  Inv d -> BRel d b mcur -> batch_flush_rotate d b = (d1, b1, ev1) ->
  Inv d1 /\ BRel d1 (mkBatch [r] c false (b_sync b) (b_id b)) (rec_apply mcur r).
Proof.
  intros HI (md & HR & Hs & Hnd & Hv & Hnc) Hfl.
  destruct (batch_flush_rotate_spec _ _ _ _ _ _ HI HR Hfl) as (HI1 & HR1).
  rewrite (BRel_flush d b mcur md HI HR Hs Hnd Hv) in HR1.
  split; [exact HI1|].
  exists mcur. split; [exact HR1|]. split; [apply rec_apply_sorted; exact Hs|].
  split; [cbn; constructor; [intros []|constructor]|]. split; [|reflexivity].
  intros k'. rewrite rec_apply_view by exact Hs. unfold staged_view. cbn [b_staged staged_find].
  destruct (bytes_eqb (r_key r) k'); reflexivity.
Qed.

Lemma BRel_staged d b mcur new Q d' b' evs :
  Inv d -> BRel d b mcur -> staged_as d b new Q d' b' evs -> Inv d' /\ BRel d' b' (rec_apply mcur new).
Proof.
  intros HI HB [(Hfl & ->)|(-> & _ & [(Ef & _ & ->)|(r & c & Ef & _ & ->)])].
  - exact (BRel_flushed d b mcur new _ _ _ _ HI HB Hfl).
  - split; [exact HI|exact (BRel_stage d b mcur new _ HB Ef)].
  - split; [exact HI|].
    pose proof (BRel_restage d b mcur _ (fun r => mkRec (r_type new) (r_key r) (r_value new) 0) r c HB Ef (fun _ => eq_refl)) as H.
    cbv beta in H. rewrite (proj2 (staged_find_in _ _ _ Ef)) in H. exact H.
Qed.

Theorem batch_put_spec d b mcur k v d' b' e evs :
  Inv d -> BRel d b mcur -> batch_put d b k v = (d', b', e, evs) ->
  Inv d' /\ e = snd (s_put mcur k v) /\ BRel d' b' (fst (s_put mcur k v)).
Proof.
  intros HI HB Hput. assert (Hnc : b_committed b = false) by (destruct HB as (md & _ & _ & _ & _ & H); exact H).
  unfold s_put.
  destruct (batch_put_cases _ _ _ _ _ _ _ _ Hput) as [(-> & -> & _ & [[-> ->]|(_ & Hc & _)])|(-> & _ & -> & Hs)];
    cbn [fst snd]; [auto|congruence|].
  destruct (BRel_staged _ _ _ _ _ _ _ _ HI HB Hs) as [A B]. auto.
Qed.

Theorem batch_delete_spec d b mcur k d' b' e evs :
  Inv d -> BRel d b mcur -> batch_delete d b k = (d', b', e, evs) ->
  Inv d' /\ e = snd (s_del mcur k) /\ BRel d' b' (fst (s_del mcur k)).
Proof.
  intros HI HB Hdel. pose proof HB as (md & HR & _ & _ & Hv & Hnc). unfold s_del.
  destruct (batch_delete_cases _ _ _ _ _ _ _ Hdel)
    as [(-> & -> & _ & [[-> ->]|[(_ & Hc & _)|(-> & _ & -> & Ef & Eg)]])|(-> & _ & -> & Hs)];
    cbn [fst snd]; [auto|congruence| |].
  - (* neither staged nor in the database: nothing to delete *)
    pose proof (R_get d md k HR) as Hg. rewrite Eg in Hg.
    assert (Hk : amap_get mcur k = None) by (rewrite Hv; unfold staged_view; rewrite Ef; exact Hg).
    rewrite (amap_del_absent mcur k Hk). auto.
  - destruct (BRel_staged _ _ _ _ _ _ _ _ HI HB Hs) as [A B]. auto.
Qed.

Theorem batch_get_spec d b mcur k :
  Inv d -> BRel d b mcur ->
  exists d' evs, batch_get d b k = (d', s_get mcur k, evs) /\ Inv d' /\ BRel d' b mcur.
Proof.
  intros HI HB. unfold batch_get, s_get.
  destruct (len k =? 0) eqn:Ek.
  - eexists _, _. split; [reflexivity|auto].
  - destruct HB as (md & HR & Hs & Hnd & Hv & Hnc). rewrite Hnc.
    assert (HB : BRel d b mcur) by (exists md; auto).
    pose proof (Hv k) as Hk. unfold staged_view in Hk.
    destruct (staged_find (b_staged b) k) as [r|] eqn:Ef.
    + rewrite Hk. unfold rec_view. destruct (r_type r =? rt_Deleted); eexists _, _; (split; [reflexivity|auto]).
    + pose proof (R_get d md k HR) as Hg. rewrite Hk.
      destruct (idx_get (d_index d) k) as [p|].
      * destruct Hg as (v & Hval & Hm). rewrite Hm.
        destruct (db_read_spec d p v (proj1 HI) Hval) as (d' & evs & Hrd & HF' & Hsame).
        exists d', evs. split; [exact Hrd|]. split; [eapply Inv_same; eassumption|].
        exists md. split; [eapply R_same; eassumption|auto].
      * rewrite Hg. eexists _, _. split; [reflexivity|auto].
Qed.

Lemma run_bops_spec : forall bops d b mcur d' b' rs evs,
  Inv d -> BRel d b mcur -> run_bops d b bops = (d', b', rs, evs) ->
  Inv d' /\ BRel d' b' (fst (s_bops mcur bops)) /\ rs = snd (s_bops mcur bops).
Proof.
  induction bops as [|o bops IH]; intros d b mcur d' b' rs evs HI HB Hrun; cbn [run_bops s_bops] in *.
  - injection Hrun as <- <- <- <-. auto.
  - destruct o as [k v|k|k].
    + destruct (batch_put d b k v) as [[[d1 b1] e] ev1] eqn:Hp.
      destruct (run_bops d1 b1 bops) as [[[d2 b2] rs2] ev2] eqn:Hr. injection Hrun as <- <- <- <-.
      destruct (batch_put_spec _ _ _ _ _ _ _ _ _ HI HB Hp) as (HI1 & He & HB1).
      destruct (s_put mcur k v) as [m1 e1] eqn:Hsp. cbn [fst snd] in *.
      destruct (IH _ _ _ _ _ _ _ HI1 HB1 Hr) as (HI2 & HB2 & Hrs).
      destruct (s_bops m1 bops) as [mf rsf]. cbn [fst snd] in *. subst.
      split; [exact HI2|]. split; [exact HB2|reflexivity].
    + destruct (batch_delete d b k) as [[[d1 b1] e] ev1] eqn:Hp.
      destruct (run_bops d1 b1 bops) as [[[d2 b2] rs2] ev2] eqn:Hr. injection Hrun as <- <- <- <-.
      destruct (batch_delete_spec _ _ _ _ _ _ _ _ HI HB Hp) as (HI1 & He & HB1).
      destruct (s_del mcur k) as [m1 e1] eqn:Hsp. cbn [fst snd] in *.
      destruct (IH _ _ _ _ _ _ _ HI1 HB1 Hr) as (HI2 & HB2 & Hrs).
      destruct (s_bops m1 bops) as [mf rsf]. cbn [fst snd] in *. subst.
      split; [exact HI2|]. split; [exact HB2|reflexivity].
    + destruct (batch_get_spec d b mcur k HI HB) as (d1 & ev1 & Hg & HI1 & HB1). rewrite Hg in Hrun.
      destruct (run_bops d1 b bops) as [[[d2 b2] rs2] ev2] eqn:Hr. injection Hrun as <- <- <- <-.
      destruct (IH _ _ _ _ _ _ _ HI1 HB1 Hr) as (HI2 & HB2 & Hrs).
      destruct (s_bops mcur bops) as [mf rsf]. cbn [fst snd] in *. subst.
      split; [exact HI2|]. split; [exact HB2|reflexivity].
Qed.
