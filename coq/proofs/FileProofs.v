(* FileProofs.v — one record, then sequences of records: write/scan/read round trip,
   exact sizes, logical = physical size, clean EOF at every end offset. *)
From Coq Require Import ZArith Lia ZifyN ZifyNat ZifyBool.
From KV Require Import Bytes GenConsts Chunk BytesLemmas ChunkProofs DamageProofs FramingProofs.
Open Scope N_scope.

(* writeToBuf pads a block tail too short for a header; DataReader.next skips it: the same place *)
Lemma pad_norm bid bsz : bsz < blockSize ->
  (if pad_len bsz =? 0 then bid else bid + 1) = fst (norm bid bsz) /\
  (if pad_len bsz =? 0 then bsz else 0) = snd (norm bid bsz) /\
  snd (norm bid bsz) + chunkHeaderSize < blockSize /\
  fst (norm bid bsz) * blockSize + snd (norm bid bsz) = bid * blockSize + bsz + pad_len bsz.
Proof.
  unfold pad_len, norm. rewrite blockSize_val, chunkHeaderSize_val. intros H.
  destruct (32768 <=? bsz + 7) eqn:E1; destruct (bsz =? 32768) eqn:E2; cbn [andb negb fst snd]; try lia.
  - replace (32768 - bsz =? 0) with false by (symmetry; apply N.eqb_neq; lia). lia.
  - change (0 =? 0) with true. cbv iota. lia.
Qed.

Lemma norm_spec bid bsz : bsz < blockSize ->
  snd (norm bid bsz) + chunkHeaderSize < blockSize /\
  fst (norm bid bsz) * blockSize + snd (norm bid bsz) = bid * blockSize + bsz + pad_len bsz.
Proof. intros H. apply (pad_norm bid bsz H). Qed.

Lemma frame_spec fid bid bsz n p bid' bsz' : bsz < blockSize -> frame fid bid bsz n = (p, bid', bsz') ->
  p = mkPos fid (fst (norm bid bsz)) (snd (norm bid bsz))
        (nchunks (blockSize - snd (norm bid bsz) - chunkHeaderSize) n * chunkHeaderSize + n) /\
  bsz' < blockSize /\
  bid' * blockSize + bsz' = fst (norm bid bsz) * blockSize + snd (norm bid bsz) + p_size p.
Proof.
  intros H. unfold frame. cbv zeta. destruct (pad_norm bid bsz H) as (-> & -> & _).
  generalize (fst (norm bid bsz)) (snd (norm bid bsz)). intros b o.
  generalize (nchunks (blockSize - o - chunkHeaderSize) n * chunkHeaderSize + n). intros size [= <- <- <-].
  cbn [p_size]. split; [reflexivity|]. rewrite blockSize_val. lia.
Qed.

Section WithCrc.
Variable crc : bytes -> N.
Hypothesis crc_u32 : forall b, crc b < 4294967296.
Notation enc_all := (enc_all crc).

Lemma frame_bytes_eq bid bsz (data : bytes) : bsz < blockSize ->
  frame_bytes crc bsz data =
    zeros (pad_len bsz)
    ++ enc_all (chunks (S (length data)) true (blockSize - snd (norm bid bsz) - chunkHeaderSize) data).
Proof. intros H. unfold frame_bytes. cbv zeta. destruct (pad_norm bid bsz H) as (_ & -> & _). reflexivity. Qed.

Theorem record_roundtrip : forall fid bid bsz pre (data : bytes) post p bid' bsz',
  bsz < blockSize -> len pre = bid * blockSize + bsz -> 0 < len data ->
  frame fid bid bsz (len data) = (p, bid', bsz') ->
  let f := pre ++ frame_bytes crc bsz data ++ post in
  len (pre ++ frame_bytes crc bsz data) = bid' * blockSize + bsz' /\
  bsz' < blockSize /\
  (p_bid p, p_off p) = norm bid bsz /\ p_fid p = fid /\
  len (frame_bytes crc bsz data) = pad_len bsz + p_size p /\
  reader_next crc f fid (p_bid p) (p_off p) = Ok (data, p, fst (norm bid' bsz'), snd (norm bid' bsz')) /\
  read_at_fuel crc (blocks_fuel (len f)) f (len f) (p_bid p) (p_off p) [] = Ok data.
Proof.
  intros fid bid bsz pre data post p bid' bsz' Hwf Hpre Hpos Hfr f.
  destruct (frame_spec _ _ _ _ _ _ _ Hwf Hfr) as (Hp & Hwf' & Hend).
  destruct (norm_spec bid bsz Hwf) as (Ho0 & Hstart).
  set (b0 := fst (norm bid bsz)) in *. set (o0 := snd (norm bid bsz)) in *.
  destruct (chunks_laid crc (S (length data)) true o0 data) as (Hpay & Hcnt & e & Hlaid); [lia|exact Hpos|exact Ho0|].
  rewrite <- Hcnt in Hp.
  assert (Hfb : frame_bytes crc bsz data = zeros (pad_len bsz) ++ enc_all (chunks (S (length data)) true (blockSize - o0 - chunkHeaderSize) data))
    by apply frame_bytes_eq, Hwf.
  set (cs := chunks _ _ _ _) in *.
  assert (Hsize : p_size p = len (enc_all cs)) by (rewrite Hp, len_enc_all, Hpay; reflexivity).
  assert (Hpre' : len (pre ++ zeros (pad_len bsz)) = b0 * blockSize + o0) by (rewrite len_app, len_zeros; lia).
  (* the reader's end position is the writer's *)
  destruct (laid_end crc _ _ _ Hlaid) as (He & Hle). specialize (Hle b0).
  assert (Hnorm : norm (b0 + len cs - 1) e = norm bid' bsz').
  { apply norm_end; [exact He|exact Hwf'|]. rewrite <- Hle. rewrite Hend, Hsize. reflexivity. }
  assert (Hf : f = (pre ++ zeros (pad_len bsz)) ++ enc_all cs ++ post) by (unfold f; rewrite Hfb, <- !app_assoc; reflexivity).
  split; [rewrite Hfb, app_assoc, len_app, Hpre', <- Hsize; symmetry; exact Hend|].
  assert (Hpb : p_bid p = b0) by (rewrite Hp; reflexivity). assert (Hpo : p_off p = o0) by (rewrite Hp; reflexivity).
  split; [exact Hwf'|]. rewrite Hpb, Hpo. split; [unfold b0, o0; destruct (norm bid bsz); reflexivity|]. split; [rewrite Hp; reflexivity|].
  split; [rewrite Hfb, len_app, len_zeros, Hsize; reflexivity|]. rewrite Hf. split.
  - rewrite (reader_next_laid crc crc_u32 _ _ _ _ _ _ _ Hlaid Hpre'), Hnorm, Hpay, Hp. reflexivity.
  - rewrite <- Hpay. exact (read_at_laid crc crc_u32 _ _ _ _ _ _ Hlaid Hpre').
Qed.

Definition nonempty (d : bytes) : Prop := 0 < len d.

(* one Write call with several records = the same records written one by one *)
Lemma write_all_app : forall a b fid bid bsz,
  write_all_buf crc fid bid bsz (a ++ b) =
    let '(bs1, ps1, bid1, bsz1) := write_all_buf crc fid bid bsz a in
    let '(bs2, ps2, bid2, bsz2) := write_all_buf crc fid bid1 bsz1 b in
    (bs1 ++ bs2, ps1 ++ ps2, bid2, bsz2).
Proof.
  induction a as [|d a IH]; intros b fid bid bsz; cbn [app write_all_buf].
  - destruct (write_all_buf crc fid bid bsz b) as [[[bs ps] b2] s2]. reflexivity.
  - destruct (frame fid bid bsz (len d)) as [[p b1] s1]. rewrite IH.
    destruct (write_all_buf crc fid b1 s1 a) as [[[bs1 ps1] b2] s2].
    destruct (write_all_buf crc fid b2 s2 b) as [[[bs2 ps2] b3] s3].
    rewrite <- app_assoc. reflexivity.
Qed.

Lemma write_all_spec : forall ds fid bid bsz pre post bs ps bid' bsz',
  bsz < blockSize -> len pre = bid * blockSize + bsz -> Forall nonempty ds ->
  write_all_buf crc fid bid bsz ds = (bs, ps, bid', bsz') ->
  let F := pre ++ bs ++ post in
  (len (pre ++ bs) = bid' * blockSize + bsz' /\ bsz' < blockSize /\ length ps = length ds) /\
  (forall fuel, scan_fuel crc (length ds + fuel) F fid (fst (norm bid bsz)) (snd (norm bid bsz))
     = (combine ds ps ++ fst (scan_fuel crc fuel F fid (fst (norm bid' bsz')) (snd (norm bid' bsz'))),
        snd (scan_fuel crc fuel F fid (fst (norm bid' bsz')) (snd (norm bid' bsz'))))) /\
  (forall d p, In (d, p) (combine ds ps) ->
     read_at_fuel crc (blocks_fuel (len F)) F (len F) (p_bid p) (p_off p) [] = Ok d).
Proof.
  induction ds as [|d r IH]; intros fid bid bsz pre post bs ps bid' bsz' Hwf Hpre Hne Hw; cbn [write_all_buf] in Hw.
  - injection Hw as <- <- <- <-. rewrite app_nil_r. repeat split; auto; [intros; apply surjective_pairing|intros d p []].
  - destruct (frame fid bid bsz (len d)) as [[p b1] s1] eqn:Hfr.
    destruct (write_all_buf crc fid b1 s1 r) as [[[bs1 ps1] b2] s2] eqn:Hr. injection Hw as <- <- <- <-.
    inversion Hne as [|? ? Hd Hr']; subst.
    destruct (record_roundtrip fid bid bsz pre d (bs1 ++ post) p b1 s1 Hwf Hpre Hd Hfr)
      as (Hlen & Hwf1 & Hpos & _ & _ & Hrd & Hra).
    destruct (IH fid b1 s1 (pre ++ frame_bytes crc bsz d) post bs1 ps1 b2 s2 Hwf1 Hlen Hr' Hr)
      as ((Hlen2 & Hwf2 & Hps) & Hscan & Hread).
    cbv zeta in *. rewrite <- (app_assoc pre) in Hscan, Hread. rewrite <- (app_assoc (frame_bytes crc bsz d)).
    split; [rewrite app_assoc; cbn [length]; auto|]. split.
    + intros fuel. rewrite <- Hpos. cbn [length Nat.add scan_fuel fst snd]. rewrite Hrd, Hscan. reflexivity.
    + intros d' p' [[= <- <-]|Hin]; [exact Hra|exact (Hread d' p' Hin)].
Qed.

Lemma read_written : forall ds fid bid bsz pre post bs ps bid' bsz' d p,
  bsz < blockSize -> len pre = bid * blockSize + bsz -> Forall nonempty ds ->
  write_all_buf crc fid bid bsz ds = (bs, ps, bid', bsz') ->
  In (d, p) (combine ds ps) ->
  read_at_fuel crc (blocks_fuel (len (pre ++ bs ++ post))) (pre ++ bs ++ post) (len (pre ++ bs ++ post))
               (p_bid p) (p_off p) [] = Ok d.
Proof. intros ds fid bid bsz pre post bs ps bid' bsz' d p Hwf Hpre Hne Hw. eapply write_all_spec; eassumption. Qed.

Lemma reader_eof f fid bid bsz :
  bsz < blockSize -> len f = bid * blockSize + bsz ->
  reader_next crc f fid (fst (norm bid bsz)) (snd (norm bid bsz)) = Err EOF.
Proof.
  intros Hwf Hlen. unfold reader_next, blocks_fuel. cbn [reader_next_fuel].
  rewrite read_chunk_end; [reflexivity|]. destruct (norm_spec bid bsz Hwf) as [_ ->]. lia.
Qed.

Lemma scan_written_then ds fid bs ps bid' bsz' post e :
  Forall nonempty ds -> write_all_buf crc fid 0 0 ds = (bs, ps, bid', bsz') ->
  (len bs = bid' * blockSize + bsz' -> bsz' < blockSize ->
   reader_next crc (bs ++ post) fid (fst (norm bid' bsz')) (snd (norm bid' bsz')) = Err e) ->
  e = EOF \/ e = UnexpectedEOF ->
  scan crc (bs ++ post) fid = (combine ds ps, match e with EOF => SEof | _ => STorn end) /\
  len bs = bid' * blockSize + bsz' /\ bsz' < blockSize.
Proof.
  intros Hne Hw Hend He.
  destruct (write_all_spec ds fid 0 0 [] post bs ps bid' bsz' eq_refl eq_refl Hne Hw) as ((Hlen & Hwf & _) & Hscan & _).
  split; [|split; assumption]. apply (scan_of_fuel crc (length ds + 1)); [|destruct He as [-> | ->]; discriminate].
  rewrite (Hscan 1%nat : scan_fuel crc (length ds + 1) (bs ++ post) fid 0 0 = _). cbn [app scan_fuel].
  rewrite (Hend Hlen Hwf). destruct He as [-> | ->]; cbn [fst snd]; rewrite app_nil_r; reflexivity.
Qed.

(* C11, sequential: a file written from empty scans back to exactly the records written, at
   exactly the positions reported, and ends with a clean EOF wherever the file ends *)
Theorem write_read_seq : forall ds fid bs ps bid' bsz',
  Forall nonempty ds ->
  write_all_buf crc fid 0 0 ds = (bs, ps, bid', bsz') ->
  scan crc bs fid = (combine ds ps, SEof) /\
  len bs = bid' * blockSize + bsz' /\ bsz' < blockSize.
Proof.
  intros ds fid bs ps bid' bsz' Hne Hw. rewrite <- (app_nil_r bs) at 1.
  apply (scan_written_then ds fid bs ps bid' bsz' [] EOF Hne Hw); [|auto].
  intros Hlen Hwf. apply reader_eof; [exact Hwf|rewrite app_nil_r; exact Hlen].
Qed.

Definition fop_ok (o : fop) : Prop :=
  match o with FWrite d => nonempty d | FStage d => nonempty d | _ => True end.

Definition df_inv (f : dfile) (hist : list bytes) (ps : list pos) : Prop :=
  write_all_buf crc (df_id f) 0 0 hist = (df_bytes f, ps, df_bid f, df_bsz f) /\
  Forall nonempty hist /\ Forall nonempty (df_staged f).

Lemma df_inv_state f hist ps : df_inv f hist ps ->
  len (df_bytes f) = df_bid f * blockSize + df_bsz f /\ df_bsz f < blockSize /\ length ps = length hist.
Proof.
  intros (Hw & Hne & _).
  destruct (write_all_spec hist (df_id f) 0 0 [] [] _ _ _ _ eq_refl eq_refl Hne Hw) as ((H1 & H2 & H3) & _).
  cbn [app] in H1. auto.
Qed.

Lemma combine_app {A B} (a1 a2 : list A) (b1 b2 : list B) :
  length a1 = length b1 -> combine (a1 ++ a2) (b1 ++ b2) = combine a1 b1 ++ combine a2 b2.
Proof. revert b1; induction a1 as [|x a1 IH]; intros [|y b1] H; cbn in *; try discriminate; [reflexivity|].
  f_equal. apply IH. lia. Qed.

Lemma df_inv_empty fid : df_inv (df_open fid []) [] [].
Proof. unfold df_inv, df_open. cbn. repeat split; constructor. Qed.

Lemma df_inv_append f hist ps rs bs ps2 b1 s1 staged :
  df_inv f hist ps -> Forall nonempty rs -> Forall nonempty staged ->
  write_all_buf crc (df_id f) (df_bid f) (df_bsz f) rs = (bs, ps2, b1, s1) ->
  df_inv (mkDf (df_id f) (df_bytes f ++ bs) b1 s1 staged) (hist ++ rs) (ps ++ ps2).
Proof.
  intros (Hw & Hne & _) Hrs Hst Hfl. split; [|split; [apply Forall_app; auto|exact Hst]].
  cbn [df_id df_bytes df_bid df_bsz]. rewrite write_all_app, Hw, Hfl. reflexivity.
Qed.

Lemma df_run_spec : forall ops f hist ps,
  df_inv f hist ps -> Forall fop_ok ops ->
  exists hist' ps', df_inv (fst (df_run crc f ops)) hist' ps' /\
                   combine hist' ps' = combine hist ps ++ snd (df_run crc f ops).
Proof.
  induction ops as [|o ops IH]; intros f hist ps Hinv Hok.
  - exists hist, ps. cbn [df_run fst snd]. rewrite app_nil_r. auto.
  - inversion Hok as [|? ? Ho Hok']; subst.
    destruct (df_inv_state f hist ps Hinv) as (Hlen & Hwf & Hps).
    (* a single write and a flush are both one Write call appending some records [rs] at positions [ps2] *)
    assert (Hadd : forall f1 rs ps2, df_inv f1 (hist ++ rs) (ps ++ ps2) ->
      exists hist' ps', df_inv (fst (df_run crc f1 ops)) hist' ps' /\
        combine hist' ps' = combine hist ps ++ combine rs ps2 ++ snd (df_run crc f1 ops)).
    { intros f1 rs ps2 H1. destruct (IH f1 _ _ H1 Hok') as (h' & p' & Hi & Hc). exists h', p'.
      rewrite Hc, combine_app, app_assoc by (symmetry; exact Hps). auto. }
    destruct o as [d|d| | |]; cbn [df_run].
    + unfold df_write. destruct (frame (df_id f) (df_bid f) (df_bsz f) (len d)) as [[p b1] s1] eqn:Hfr.
      destruct (Hadd (mkDf (df_id f) (df_bytes f ++ frame_bytes crc (df_bsz f) d) b1 s1 (df_staged f)) [d] [p])
        as (h' & p' & Hi & Hc); [|destruct (df_run crc _ ops); exists h', p'; auto].
      rewrite <- (app_nil_r (frame_bytes crc (df_bsz f) d)).
      apply df_inv_append; [exact Hinv|repeat constructor; exact Ho|apply Hinv|]. cbn [write_all_buf]. rewrite Hfr. reflexivity.
    + apply IH; [|exact Hok']. destruct Hinv as (Hw & Hne & Hst). split; [exact Hw|]. split; [exact Hne|].
      apply Forall_app. auto.
    + unfold df_flush.
      destruct (write_all_buf crc (df_id f) (df_bid f) (df_bsz f) (df_staged f)) as [[[bs ps2] b1] s1] eqn:Hfl.
      destruct (Hadd (mkDf (df_id f) (df_bytes f ++ bs) b1 s1 []) (df_staged f) ps2)
        as (h' & p' & Hi & Hc); [|destruct (df_run crc _ ops); exists h', p'; auto].
      apply df_inv_append; [exact Hinv|apply Hinv|constructor|exact Hfl].
    + (* close and reopen: the logical end is recomputed from the physical size *)
      apply IH; [|exact Hok']. destruct Hinv as (Hw & Hne & Hst). split; [|split; [exact Hne|constructor]].
      cbn [df_open df_id df_bytes df_bid df_bsz].
      replace (len (df_bytes f) / blockSize) with (df_bid f) by (rewrite Hlen, blockSize_val in *; lia).
      replace (len (df_bytes f) mod blockSize) with (df_bsz f) by (rewrite Hlen, blockSize_val in *; lia).
      exact Hw.
    + (* a refused write: the file is what it was, nothing is staged any more *)
      apply IH; [|exact Hok']. destruct Hinv as (Hw & Hne & Hst). split; [exact Hw|]. split; [exact Hne|constructor].
Qed.

(* C11 for data files: after ANY history of single writes, staged writes flushed in one
   call, reopenings, and Write calls the back-end refuses (the records staged for such a call are
   dropped with it and count as not written), starting from an empty file: the logical size is the physical size,
   a scan returns every record written with the position reported at write time and then a
   clean EOF, and every reported position reads back its record. *)
Theorem datafile_roundtrip : forall fid ops,
  Forall fop_ok ops ->
  let f := fst (df_run crc (df_open fid []) ops) in
  let out := snd (df_run crc (df_open fid []) ops) in
  df_size f = len (df_bytes f) /\
  scan crc (df_bytes f) (df_id f) = (out, SEof) /\
  (forall d p, In (d, p) out -> read_at crc f (p_bid p) (p_off p) = Ok d).
Proof.
  intros fid ops Hok f out.
  destruct (df_run_spec ops (df_open fid []) [] [] (df_inv_empty fid) Hok) as (hist & ps & Hinv & Hc).
  cbn [combine app] in Hc. fold f in Hinv. fold out in Hc.
  destruct (df_inv_state f hist ps Hinv) as (Hlen & Hwf & Hps).
  destruct Hinv as (Hw & Hne & _).
  destruct (write_read_seq hist (df_id f) _ _ _ _ Hne Hw) as (Hscan & _ & _).
  split; [unfold df_size; lia|]. split; [rewrite Hscan, Hc; reflexivity|].
  intros d p Hin. rewrite <- Hc in Hin.
  pose proof (read_written hist (df_id f) 0 0 [] [] _ _ _ _ d p eq_refl eq_refl Hne Hw Hin) as HR.
  cbn [app] in HR. rewrite app_nil_r in HR.
  unfold read_at.
  (* a position that reads back successfully lies inside the file *)
  assert (Hbid : (df_bid f <? p_bid p) = false).
  { apply N.ltb_ge. destruct (N.le_gt_cases (p_bid p) (df_bid f)) as [Hle|Hgt]; [exact Hle|]. exfalso.
    unfold blocks_fuel in HR. cbn [read_at_fuel] in HR.
    rewrite read_chunk_end in HR by (rewrite Hlen, blockSize_val in *; lia). discriminate. }
  rewrite Hbid. unfold df_size. rewrite <- Hlen. exact HR.
Qed.

Lemma df_write_bytes (f : dfile) d :
  df_bytes (fst (df_write crc f d)) = df_bytes f ++ frame_bytes crc (df_bsz f) d.
Proof. unfold df_write. destruct (frame _ _ _ _) as [[p b] s]. reflexivity. Qed.

Lemma df_size_open fid (content : bytes) : df_size (df_open fid content) = len content.
Proof. unfold df_size, df_open. cbn [df_bid df_bsz]. rewrite blockSize_val. lia. Qed.

Lemma read_at_open_laid fid cs e : laid 0 cs e -> read_at crc (df_open fid (enc_all cs)) 0 0 = Ok (payload cs).
Proof.
  intros Hl. unfold read_at. rewrite df_size_open. cbn [df_bytes df_open].
  destruct (_ <? 0) eqn:E; [lia|]. rewrite <- (app_nil_r (enc_all cs)).
  exact (read_at_laid crc crc_u32 0 cs e [] [] 0 Hl eq_refl).
Qed.

(* Nothing ties a chunk to the block it was written to.  A record of four chunks at the start of a
   file, the second block then overwritten with a copy of the third (both hold one whole Middle chunk):
   the result is a laid-out chunk list as well, so it reads back without error, as other data.
   This holds for every checksum with 32-bit results: the checksum plays no part in it. *)
Theorem block_transplant (a b c d : bytes) :
  len a = blockSize - chunkHeaderSize -> len b = blockSize - chunkHeaderSize -> len c = blockSize - chunkHeaderSize ->
  0 < len d -> len d <= blockSize - chunkHeaderSize ->
  let F := df_bytes (fst (df_write crc (df_open 0 []) (a ++ b ++ c ++ d))) in
  let T := take 32768 F ++ take 32768 (drop 65536 F) ++ take 32768 (drop 65536 F) ++ drop 98304 F in
  len T = len F /\ (b <> c -> T <> F) /\
  read_at crc (df_open 0 F) 0 0 = Ok (a ++ b ++ c ++ d) /\
  read_at crc (df_open 0 T) 0 0 = Ok (a ++ c ++ c ++ d).
Proof.
  intros Ha Hb Hc Hd0 Hd F T. rewrite blockSize_val, chunkHeaderSize_val in *.
  set (cs x y := [(ct_First, a); (ct_Middle, x); (ct_Middle, y); (ct_Last, d)]).
  assert (Hlaid : forall x y, len x = 32768 - 7 -> len y = 32768 - 7 -> laid 0 (cs x y) (0 + chunkHeaderSize + len d)).
  { intros x y Hx Hy. repeat (apply laid_more; [reflexivity|rewrite blockSize_val, chunkHeaderSize_val; lia|]).
    apply laid_last; [reflexivity|rewrite blockSize_val, chunkHeaderSize_val; lia]. }
  assert (HF : F = enc_all (cs b c)).
  { unfold F. rewrite df_write_bytes.
    change (df_bytes (df_open 0 []) ++ frame_bytes crc (df_bsz (df_open 0 [])) (a ++ b ++ c ++ d))
      with (enc_all (chunks (S (length (a ++ b ++ c ++ d))) true (blockSize - 0 - chunkHeaderSize) (a ++ b ++ c ++ d))).
    pose proof (len_length a). pose proof (len_length b). pose proof (len_length c). pose proof (len_length d).
    rewrite !chunks_cons, chunks_last by (rewrite ?blockSize_val, ?chunkHeaderSize_val, ?app_length, ?len_app; lia).
    reflexivity. }
  assert (HT : T = enc_all (cs c c)).
  { unfold T. rewrite HF. unfold cs. rewrite !enc_all_cons.
    set (e1 := enc_chunk crc (ct_First, a)). set (e2 := enc_chunk crc (ct_Middle, b)).
    set (e3 := enc_chunk crc (ct_Middle, c)). set (e4 := enc_chunk crc (ct_Last, d) ++ enc_all []).
    assert (L1 : len e1 = 32768) by (unfold e1; rewrite len_enc_chunk; cbn [snd]; lia).
    assert (L2 : len e2 = 32768) by (unfold e2; rewrite len_enc_chunk; cbn [snd]; lia).
    assert (L3 : len e3 = 32768) by (unfold e3; rewrite len_enc_chunk; cbn [snd]; lia).
    rewrite (take_app_exact e1) by lia.
    rewrite (app_assoc e1 e2), (drop_app_exact (e1 ++ e2)) by (rewrite len_app; lia).
    rewrite (take_app_exact e3) by lia.
    rewrite (app_assoc (e1 ++ e2) e3), (drop_app_exact ((e1 ++ e2) ++ e3)) by (rewrite !len_app; lia).
    reflexivity. }
  repeat split.
  - rewrite HT, HF, !len_enc_all. unfold payload, cs. cbn [map concat snd len]. rewrite !len_app. lia.
  - rewrite HT, HF. unfold cs. rewrite !enc_all_cons. intros Hbc E.
    apply app_inv_head, app_inv_tail, enc_chunk_inj in E. congruence.
  - rewrite HF, (read_at_open_laid 0 _ _ (Hlaid b c Hb Hc)). unfold payload. cbn [cs map concat snd]. rewrite app_nil_r. reflexivity.
  - rewrite HT, (read_at_open_laid 0 _ _ (Hlaid c c Hc Hc)). unfold payload. cbn [cs map concat snd]. rewrite app_nil_r. reflexivity.
Qed.

End WithCrc.
