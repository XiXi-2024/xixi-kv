(* DataTypeRefine.v — the commands on the ordered map refine the abstract types (C19).
   Rel ties a map M to an abstract state A: per user key, the key's record is the encoding of the value's
   metadata and the elements sit at the internal keys key|version|element; everything else in the map is
   garbage of earlier incarnations (other versions).  Every command keeps Rel and replies as the abstract
   type does. *)
From Coq Require Import List NArith Lia Bool.
From Coq Require Import ZArith ZifyN ZifyBool.
From KV Require Import Bytes GenConsts BytesLemmas Record Engine Script DataType DataTypeRun DataTypeSpec.
From KV Require Import AMapLemmas DataTypeCodec.
Import ListNotations.
Open Scope N_scope.

Definition lk (M : smap) (x : bytes) : option bytes := amap_get M x.

Lemma m_get_lk M k : len k <> 0 -> m_get M k = (M, lk M k).
Proof.
  intros H. unfold m_get, s_get, lk. destruct (len k =? 0) eqn:E; [apply N.eqb_eq in E; contradiction|].
  destruct (amap_get M k); reflexivity.
Qed.
Lemma m_get_ikey M k v y : m_get M (ikey k v y) = (M, lk M (ikey k v y)).
Proof. apply m_get_lk. apply ikey_len. Qed.

Definition upd (L : bytes -> option bytes) (k : bytes) (o : option bytes) : bytes -> option bytes :=
  fun x => if bytes_eqb x k then o else L x.
Fixpoint wapply (L : bytes -> option bytes) (ws : list wop) : bytes -> option bytes :=
  match ws with
  | [] => L
  | WPut k v :: r => wapply (upd L k (Some v)) r
  | WDel k :: r => wapply (upd L k None) r
  end.
Definition wkey (w : wop) : bytes := match w with WPut k _ => k | WDel k => k end.

Lemma s_put_eq M k v : len k <> 0 -> s_put M k v = (fst (amap_put M k v), None).
Proof. intros H. unfold s_put. rewrite (proj2 (N.eqb_neq _ _) H). reflexivity. Qed.
Lemma s_del_eq M k : len k <> 0 -> s_del M k = (fst (amap_del M k), None).
Proof. intros H. unfold s_del. rewrite (proj2 (N.eqb_neq _ _) H). reflexivity. Qed.

Lemma s_bops_batch : forall ws M L, sorted M -> (forall x, lk M x = L x) -> Forall (fun w => len (wkey w) <> 0) ws ->
  sorted (fst (s_bops M (map bop_of ws))) /\ forall x, lk (fst (s_bops M (map bop_of ws))) x = wapply L ws x.
Proof.
  induction ws as [|w ws IH]; intros M L Hs HL Hk; [cbn; auto|].
  pose proof (Forall_inv Hk) as Hk1. pose proof (Forall_inv_tail Hk) as Hk2.
  destruct w as [k v|k]; cbn [map bop_of s_bops wapply wkey] in *.
  - rewrite s_put_eq by exact Hk1.
    destruct (IH (fst (amap_put M k v)) (upd L k (Some v)) (amap_put_sorted _ _ _ Hs)) as [Hs2 Hl2]; [|exact Hk2|].
    { intros x. unfold lk, upd. rewrite amap_get_put, <- HL. reflexivity. }
    destruct (s_bops _ _). auto.
  - rewrite s_del_eq by exact Hk1.
    destruct (IH (fst (amap_del M k)) (upd L k None) (amap_del_sorted _ _ Hs)) as [Hs2 Hl2]; [|exact Hk2|].
    { intros x. unfold lk, upd. rewrite amap_get_del, <- HL by exact Hs. reflexivity. }
    destruct (s_bops _ _). auto.
Qed.

Definition plan_ws (p : plan) : list wop :=
  match p with PNone => [] | PPut k v => [WPut k v] | PDelete k => [WDel k] | PBatch ws => ws end.

Lemma m_apply_spec M p : sorted M -> Forall (fun w => len (wkey w) <> 0) (plan_ws p) ->
  snd (m_apply M p) = None /\ sorted (fst (m_apply M p)) /\ forall x, lk (fst (m_apply M p)) x = wapply (lk M) (plan_ws p) x.
Proof.
  intros Hs Hk. destruct p as [|k v|k|ws]; cbn [m_apply plan_ws wapply] in *.
  - auto.
  - rewrite s_put_eq by exact (Forall_inv Hk). split; [reflexivity|]. split; [apply amap_put_sorted; exact Hs|]. intros x. apply amap_get_put.
  - rewrite s_del_eq by exact (Forall_inv Hk). split; [reflexivity|]. split; [apply amap_del_sorted; exact Hs|]. intros x. apply amap_get_del. exact Hs.
  - split; [reflexivity|]. apply s_bops_batch; auto.
Qed.

Lemma wapply_other : forall ws L x, (forall w, In w ws -> wkey w <> x) -> wapply L ws x = L x.
Proof.
  induction ws as [|w ws IH]; intros L x H; cbn [wapply]; [reflexivity|].
  assert (Hw : wkey w <> x) by (apply H; left; reflexivity).
  assert (E : bytes_eqb x (wkey w) = false) by (apply bytes_eqb_neq; congruence).
  destruct w as [k v|k]; cbn [wkey] in *; rewrite IH by (intros w' Hw'; apply H; right; exact Hw'); unfold upd; rewrite E; reflexivity.
Qed.
Lemma wapply_some : forall ws L x, wapply L ws x <> None -> L x <> None \/ exists w, In w ws /\ wkey w = x.
Proof.
  induction ws as [|w ws IH]; intros L x H; cbn [wapply] in H; [left; exact H|].
  destruct w as [k v|k]; destruct (IH _ _ H) as [H1|(w' & Hi & He)].
  - unfold upd in H1. destruct (bytes_eqb x k) eqn:E; [right; exists (WPut k v); split; [left; reflexivity|apply bytes_eqb_eq in E; cbn; congruence]|left; exact H1].
  - right. exists w'. split; [right; exact Hi|exact He].
  - unfold upd in H1. destruct (bytes_eqb x k) eqn:E; [contradiction|left; exact H1].
  - right. exists w'. split; [right; exact Hi|exact He].
Qed.

Lemma beq_ikey k v y y' : bytes_eqb (ikey k v y) (ikey k v y') = bytes_eqb y y'.
Proof.
  destruct (bytes_eqb y y') eqn:E.
  - apply bytes_eqb_eq in E. subst. apply bytes_eqb_refl.
  - apply bytes_eqb_neq. apply bytes_eqb_neq in E. intros H. apply E. unfold ikey in H.
    apply app_inv_head in H. apply app_inv_head in H. exact H.
Qed.
Lemma beq_ikey_self k v y : bytes_eqb (ikey k v y) k = false.
Proof. apply bytes_eqb_neq. apply ikey_neq_self. Qed.
Lemma beq_self_ikey k v y : bytes_eqb k (ikey k v y) = false.
Proof. rewrite bytes_eqb_sym. apply beq_ikey_self. Qed.
Lemma beq_suffix x x' : bytes_eqb (x ++ le32 (len x)) (x' ++ le32 (len x')) = bytes_eqb x x'.
Proof.
  destruct (bytes_eqb x x') eqn:E.
  - apply bytes_eqb_eq in E. subst. apply bytes_eqb_refl.
  - apply bytes_eqb_neq. apply bytes_eqb_neq in E. intros H. apply E. apply suffix_len_inj. exact H.
Qed.
Lemma beq_le64 a b : a < 2 ^ 64 -> b < 2 ^ 64 -> bytes_eqb (le64 a) (le64 b) = (a =? b).
Proof.
  intros Ha Hb. destruct (a =? b) eqn:E.
  - apply N.eqb_eq in E. subst. apply bytes_eqb_refl.
  - apply bytes_eqb_neq. apply N.eqb_neq in E. intros H. apply E. apply le64_inj; assumption.
Qed.

Definition list_at (L : bytes -> option bytes) (k : bytes) (ver h : N) (l : list bytes) : Prop :=
  forall i, i < len l -> L (ikey k ver (le64 (wrap64 (h + i)))) = nth_error l (N.to_nat i).

Lemma list_at_cons L L' k ver h e l :
  len l + 1 < 2 ^ 64 -> list_at L k ver h l ->
  (forall y, L' (ikey k ver y) = if bytes_eqb y (le64 (wrap64 (h + 18446744073709551615))) then Some e else L (ikey k ver y)) ->
  list_at L' k ver (wrap64 (h + 18446744073709551615)) (e :: l).
Proof.
  intros Hn Hl HL' i Hi. rewrite len_cons in Hi. rewrite HL', beq_le64 by apply wrap64_lt.
  destruct (N.eq_dec i 0) as [->|Ei].
  - rewrite N.add_0_r, wrap64_small, N.eqb_refl by apply wrap64_lt. reflexivity.
  - rewrite (proj2 (N.eqb_neq _ _)).
    + rewrite wrap64_idem, N.add_shuffle0, wrap64_pred, Hl by lia. replace (N.to_nat i) with (S (N.to_nat (i - 1))) by lia. reflexivity.
    + intros E. apply Ei. apply (wrap64_add_inj (wrap64 (h + 18446744073709551615)) i 0); [lia|reflexivity|].
      rewrite E, N.add_0_r, (wrap64_small (wrap64 _)) by apply wrap64_lt. reflexivity.
Qed.
Lemma list_at_snoc L L' k ver h e l :
  len l + 1 < 2 ^ 64 -> list_at L k ver h l ->
  (forall y, L' (ikey k ver y) = if bytes_eqb y (le64 (wrap64 (h + len l))) then Some e else L (ikey k ver y)) ->
  list_at L' k ver h (l ++ [e]).
Proof.
  intros Hn Hl HL' i Hi. rewrite len_app in Hi. change (len [e]) with 1 in Hi. rewrite HL', beq_le64 by apply wrap64_lt.
  destruct (N.eq_dec i (len l)) as [->|Ei].
  - rewrite N.eqb_refl, nth_error_app2, len_length, Nnat.Nat2N.id, Nat.sub_diag by (rewrite len_length, Nnat.Nat2N.id; apply le_n). reflexivity.
  - rewrite (proj2 (N.eqb_neq _ _)) by (intros E; apply wrap64_add_inj in E; [exact (Ei E)|lia|lia]).
    rewrite Hl, nth_error_app1 by (rewrite ?len_length in *; lia). reflexivity.
Qed.
Lemma list_at_tl L L' k ver h x r :
  list_at L k ver h (x :: r) -> (forall y, L' (ikey k ver y) = L (ikey k ver y)) -> list_at L' k ver (wrap64 (h + 1)) r.
Proof.
  intros Hl HL' i Hi. rewrite HL', wrap64_succ, Hl by (rewrite len_cons; lia).
  replace (N.to_nat (i + 1)) with (S (N.to_nat i)) by lia. reflexivity.
Qed.
Lemma list_at_removelast L L' k ver h l : l <> [] ->
  list_at L k ver h l -> (forall y, L' (ikey k ver y) = L (ikey k ver y)) -> list_at L' k ver h (removelast l).
Proof.
  intros Hne Hl HL' i Hi. pose proof (app_removelast_last [] Hne) as Hsplit.
  assert (Hlen : len l = len (removelast l) + 1) by (rewrite Hsplit at 1; rewrite len_app; reflexivity).
  rewrite HL', Hl by lia. rewrite Hsplit at 1. rewrite nth_error_app1 by (rewrite len_length in Hi; unfold bytes in *; lia). reflexivity.
Qed.
Lemma list_at_last L k ver h l : l <> [] -> list_at L k ver h l ->
  L (ikey k ver (le64 (wrap64 (wrap64 (h + len l) + 18446744073709551615)))) = Some (last l []).
Proof.
  intros Hne Hl. pose proof (app_removelast_last [] Hne) as Hsplit.
  assert (Hlen : len l = len (removelast l) + 1) by (rewrite Hsplit at 1; rewrite len_app; reflexivity).
  rewrite wrap64_idem, wrap64_pred, Hl by lia. rewrite Hsplit at 1. rewrite (len_length (removelast l)) in Hlen. unfold bytes in *.
  rewrite nth_error_app2 by lia. replace (N.to_nat (len l - 1) - length (removelast l))%nat with 0%nat by lia. reflexivity.
Qed.

Section Refine.
Variable U : bytes -> Prop.       (* the user keys *)
Variable V : N -> Prop.           (* the versions (clock readings) that occur *)
Variable ZM : bytes -> Prop.      (* sorted-set members that occur *)
Variable ZS : bytes -> Prop.      (* sorted-set scores (as strings) that occur *)
Hypothesis U_nonempty : forall k, U k -> len k <> 0.
Hypothesis V_bound : forall v, V v -> v < 2 ^ 63.
(* no user key is an internal key, and internal keys of different user keys differ *)
Hypothesis Sep1 : forall k k' v y, U k -> U k' -> V v -> k' <> ikey k v y.
Hypothesis Sep2 : forall k k' v v' y y', U k -> U k' -> V v -> V v' -> ikey k v y = ikey k' v' y' -> k = k'.
(* no member is <score><member><length of member> (the collision D22) *)
Hypothesis ZSep : forall m m' s, ZM m -> ZM m' -> ZS s -> m <> s ++ m' ++ le32 (len m').

Definition elems (M : smap) (k : bytes) (m : meta) (a : aval) : Prop :=
  match a with
  | AStr _ _ => False
  | AHash h => sorted h /\ m_size m = len h /\ forall f, lk M (ikey k (m_version m) f) = amap_get h f
  | ASet s => sorted s /\ m_size m = len s /\ (forall x v, amap_get s x = Some v -> v = []) /\
              forall x, lk M (ikey k (m_version m) (x ++ le32 (len x))) = amap_get s x
  | AList l => m_size m = len l /\ m_tail m = wrap64 (m_head m + len l) /\
               forall i, i < len l -> lk M (ikey k (m_version m) (le64 (wrap64 (m_head m + i)))) = nth_error l (N.to_nat i)
  | AZSet z => sorted z /\ m_size m = len z /\ (forall x sc, amap_get z x = Some sc -> ZM x /\ ZS sc) /\
               forall x, ZM x -> lk M (ikey k (m_version m) x) = amap_get z x
  end.

(* [n] bounds the sizes stored in the metadata records (it grows by one with each command, so sizes stay
   below 2^63 and encode); [used] lists the versions handed out so far *)
Definition RelK (n : N) (used : list N) (M : smap) (k : bytes) (oa : option aval) : Prop :=
  match oa with
  | None => lk M k = None
  | Some (AStr v ex) => lk M k = Some (enc_string v ex) /\ ex < 2 ^ 63
  | Some a => exists m, lk M k = Some (enc_meta m) /\ wf_meta m /\ m_type m = kind a /\ m_expire m = 0 /\
                        In (m_version m) used /\ m_size m <= n /\ elems M k m a
  end.

Definition Ghost (used : list N) (M : smap) : Prop :=
  forall x, lk M x <> None -> U x \/ exists k v y, U k /\ In v used /\ x = ikey k v y.

Definition Rel (n : N) (used : list N) (M : smap) (A : astate) : Prop :=
  sorted M /\ (forall v, In v used -> V v) /\ (forall k, U k -> RelK n used M k (A k)) /\ Ghost used M.

(* ---- the record of a structure: metadata and elements ---- *)
Definition meta_ok (n : N) (used : list N) (m : meta) (a : aval) : Prop :=
  wf_meta m /\ m_type m = kind a /\ m_expire m = 0 /\ In (m_version m) used /\ m_size m <= n.

Lemma RelK_intro n used M k m a :
  lk M k = Some (enc_meta m) -> meta_ok n used m a -> elems M k m a -> RelK n used M k (Some a).
Proof. intros Hl (H1 & H2 & H3 & H4 & H5) He. destruct a; [destruct He|..]; exists m; auto 8. Qed.

Lemma RelK_elim n used M k a : RelK n used M k (Some a) -> kind a <> ty_String ->
  exists m, lk M k = Some (enc_meta m) /\ meta_ok n used m a /\ elems M k m a.
Proof.
  intros HR Hk. destruct a; [contradiction Hk; reflexivity|..];
  destruct HR as (m & Hl & H1 & H2 & H3 & H4 & H5 & He); exists m; unfold meta_ok; auto 8.
Qed.

Lemma meta_ok_upd n n' used used' m m' a a' :
  meta_ok n used m a -> wf_meta m' -> m_type m' = m_type m -> m_expire m' = m_expire m -> m_version m' = m_version m ->
  kind a' = kind a -> incl used used' -> m_size m' <= n' -> meta_ok n' used' m' a'.
Proof.
  intros (_ & Ht & He & Hu & _) Hw Ht' He' Hv' Hk Hi Hs. unfold meta_ok. rewrite Ht', He', Hv', Hk.
  split; [exact Hw|]. split; [exact Ht|]. split; [exact He|]. split; [apply Hi; exact Hu|exact Hs].
Qed.

Lemma elems_frame M M' k m a :
  (forall y, lk M' (ikey k (m_version m) y) = lk M (ikey k (m_version m) y)) -> elems M k m a -> elems M' k m a.
Proof.
  intros Hi. destruct a; cbn [elems]; [trivial|..]; intros H; decompose [and] H; repeat (split; [assumption|]); intros; rewrite Hi; auto.
Qed.

Lemma RelK_frame n n' used used' M M' k oa :
  RelK n used M k oa -> lk M' k = lk M k -> (forall v y, In v used -> lk M' (ikey k v y) = lk M (ikey k v y)) ->
  n <= n' -> incl used used' -> RelK n' used' M' k oa.
Proof.
  intros HR Hk Hi Hn Hu. destruct oa as [a|]; [|cbn [RelK] in *; congruence].
  destruct (N.eq_dec (kind a) ty_String) as [E|E].
  - destruct a; try discriminate E. cbn [RelK] in *. rewrite Hk. exact HR.
  - destruct (RelK_elim _ _ _ _ _ HR E) as (m & Hl & Hm & He).
    apply (RelK_intro _ _ _ _ m); [congruence| |].
    + apply (meta_ok_upd n n' used used' m m a a Hm); try reflexivity; [apply Hm|exact Hu|]. destruct Hm as (_ & _ & _ & _ & Hs). lia.
    + apply (elems_frame M); [|exact He]. intros y. apply Hi. apply Hm.
Qed.

Definition confined (k : bytes) (vs : N -> Prop) (ws : list wop) : Prop :=
  Forall (fun w => wkey w = k \/ exists v y, vs v /\ wkey w = ikey k v y) ws.

Lemma confined_nonempty k vs ws : U k -> confined k vs ws -> Forall (fun w => len (wkey w) <> 0) ws.
Proof.
  intros Hk Hc. eapply Forall_impl; [|exact Hc]. intros w [->|(v & y & _ & ->)]; [apply U_nonempty; exact Hk|apply ikey_len].
Qed.

(* the keys of the map that belong to the user key k: k itself and its internal keys; no key belongs to two *)
Definition owns (k : bytes) (vs : N -> Prop) (x : bytes) : Prop := x = k \/ exists v y, vs v /\ x = ikey k v y.

Lemma owns_inj k k' (vs vs' : N -> Prop) x :
  U k -> U k' -> (forall v, vs v -> V v) -> (forall v, vs' v -> V v) -> owns k vs x -> owns k' vs' x -> k = k'.
Proof.
  intros Hk Hk' HV HV' [->|(v & y & Hv & ->)] [E|(v' & y' & Hv' & E)].
  - exact E.
  - destruct (Sep1 k' k v' y' Hk' Hk (HV' _ Hv') E).
  - destruct (Sep1 k k' v y Hk Hk' (HV _ Hv) (eq_sym E)).
  - exact (Sep2 k k' v v' y y' Hk Hk' (HV _ Hv) (HV' _ Hv') E).
Qed.

(* a command on key k that writes only k and internal keys of k (under the new or a known version)
   keeps the relation of every other key and the garbage invariant *)
Lemma rel_step n used M A k ver p oa' A' :
  Rel n used M A -> U k -> V ver ->
  confined k (fun v => v = ver \/ In v used) (plan_ws p) ->
  (forall x, A' x = if bytes_eqb x k then oa' else A x) ->
  RelK (n + 1) (ver :: used) (fst (m_apply M p)) k oa' ->
  snd (m_apply M p) = None /\ Rel (n + 1) (ver :: used) (fst (m_apply M p)) A'.
Proof using U V ZM ZS U_nonempty V_bound Sep1 Sep2 ZSep.
  intros (Hs & HV & HK & HG) Hk Hver Hc HA' Hnew.
  destruct (m_apply_spec M p Hs (confined_nonempty _ _ _ Hk Hc)) as (He & Hs' & Hl). split; [exact He|].
  assert (HVs : forall v, v = ver \/ In v used -> V v) by (intros v [->|Hv]; auto).
  assert (Hown : forall w, In w (plan_ws p) -> owns k (fun v => v = ver \/ In v used) (wkey w)) by (apply Forall_forall; exact Hc).
  split; [exact Hs'|]. split; [intros v [<-|Hv]; auto|]. split.
  - intros k' Hk'. rewrite HA'. destruct (bytes_eqb k' k) eqn:E; [apply bytes_eqb_eq in E; subst k'; exact Hnew|].
    apply bytes_eqb_neq in E.
    (* what belongs to another key is not written *)
    assert (Hoth : forall x, owns k' (fun v => In v used) x -> lk (fst (m_apply M p)) x = lk M x).
    { intros x Hx. rewrite Hl. apply wapply_other. intros w Hw Heq. apply E.
      apply (owns_inj k' k _ _ x Hk' Hk HV HVs Hx). rewrite <- Heq. apply Hown. exact Hw. }
    apply (RelK_frame n (n + 1) used (ver :: used) M _ k' (A k') (HK k' Hk')); auto using incl_tl, incl_refl.
    + apply Hoth. left. reflexivity.
    + intros v y Hv. apply Hoth. right. exists v, y. auto.
    + apply N.le_add_r.
  - intros x Hx. rewrite Hl in Hx. destruct (wapply_some _ _ _ Hx) as [H1|(w & Hw & <-)].
    + destruct (HG x H1) as [Hu|(k0 & v & y & Hk0 & Hv & ->)]; [left; exact Hu|].
      right. exists k0, v, y. cbn [In]. auto.
    + destruct (Hown w Hw) as [->|(v & y & Hv & ->)]; [left; exact Hk|].
      right. exists k, v, y. split; [exact Hk|]. split; [destruct Hv as [->|Hv]; [left; reflexivity|right; exact Hv]|reflexivity].
Qed.

Lemma V64 v : V v -> v < 2 ^ 64.
Proof. intros H. apply (N.lt_trans _ (2 ^ 63)); [apply V_bound; exact H|reflexivity]. Qed.

(* nothing lives under a version that was never handed out *)
Lemma fresh_empty used M k ver y : Ghost used M -> U k -> V ver -> (forall v, In v used -> V v) -> ~ In ver used ->
  lk M (ikey k ver y) = None.
Proof using U V ZM ZS U_nonempty V_bound Sep1 Sep2 ZSep.
  intros HG Hk Hv HV Hf. destruct (lk M (ikey k ver y)) eqn:E; [|reflexivity]. exfalso.
  destruct (HG (ikey k ver y)) as [Hu|(k0 & v & y0 & Hk0 & Hv0 & Heq)]; [congruence| |].
  - exact (Sep1 k _ ver y Hk Hu Hv eq_refl).
  - pose proof (Sep2 k k0 ver v y y0 Hk Hk0 Hv (HV v Hv0) Heq) as <-.
    apply ikey_inj in Heq; [|apply V64; auto ..]. destruct Heq as [-> _]. contradiction.
Qed.

Lemma find_fresh M k dt ver now : len k <> 0 -> lk M k = None ->
  find smap m_get M k dt ver now = (M, FmMeta (fresh_meta dt ver) false).
Proof.
  intros Hk Hl. unfold find. rewrite (proj2 (N.eqb_neq _ _) Hk), m_get_lk, Hl by exact Hk. reflexivity.
Qed.
Lemma find_hit n used M k m a ver now : len k <> 0 -> lk M k = Some (enc_meta m) -> meta_ok n used m a ->
  find smap m_get M k (kind a) ver now = (M, FmMeta m true).
Proof.
  intros Hk Hl (Hw & <- & He & _). unfold find, find_meta_raw. rewrite (proj2 (N.eqb_neq _ _) Hk), m_get_lk, Hl by exact Hk.
  destruct (enc_meta_head m) as [r Hr]. rewrite Hr, N.eqb_refl, <- Hr, dec_enc_meta, He by exact Hw. reflexivity.
Qed.

Lemma RelK_raw_head n used M k a : RelK n used M k (Some a) -> exists r, lk M k = Some (kind a :: r).
Proof.
  intros HR. destruct a; cbn [RelK] in HR.
  1: { destruct HR as [-> _]. eexists. reflexivity. }
  all: destruct HR as (m & -> & _ & <- & _); destruct (enc_meta_head m) as [r ->]; eexists; reflexivity.
Qed.
Lemma find_wrong n used M k a dt ver now : len k <> 0 -> RelK n used M k (Some a) -> kind a <> dt ->
  find smap m_get M k dt ver now = (M, FmWrong).
Proof.
  intros Hk HR Hd. destruct (RelK_raw_head _ _ _ _ _ HR) as [r Hr]. apply N.eqb_neq in Hd.
  unfold find, find_meta_raw. rewrite (proj2 (N.eqb_neq _ _) Hk), m_get_lk, Hr, Hd by exact Hk. reflexivity.
Qed.

Inductive cont := CHash | CSet | CList | CZSet.
Definition dt_of (t : cont) : N := match t with CHash => ty_Hash | CSet => ty_Set | CList => ty_List | CZSet => ty_ZSet end.
Definition empty_of (t : cont) : aval := match t with CHash => AHash [] | CSet => ASet [] | CList => AList [] | CZSet => AZSet [] end.
Definition cmd_cont (c : cmd) : option cont :=
  match c with
  | KHSet _ _ _ | KHGet _ _ | KHDel _ _ => Some CHash
  | KSAdd _ _ | KSIsMember _ _ | KSRem _ _ => Some CSet
  | KPush _ _ _ | KPop _ _ => Some CList
  | KZAdd _ _ _ | KZScore _ _ => Some CZSet
  | _ => None
  end.

Lemma cmd_wrong_type n used M A c a t ver now :
  cmd_cont c = Some t -> len (cmd_key c) <> 0 -> A (cmd_key c) = Some a -> RelK n used M (cmd_key c) (Some a) -> kind a <> dt_of t ->
  dt_cmd smap m_get M c ver now = (M, DWrongType, PNone) /\ a_cmd A c now = (A, DWrongType).
Proof.
  intros Hd Hk HA HR Hne. pose proof (find_wrong n used M _ a _ ver now Hk HR Hne) as Hf. split.
  - (* each of these commands begins with findMetadata and returns when the type is wrong *)
    destruct c; try discriminate Hd; injection Hd as <-; cbn [cmd_key dt_of] in Hf; cbn [dt_cmd].
    all: unfold dt_hset, dt_hget, dt_hdel, dt_sadd, dt_sismember, dt_srem, dt_push, dt_pop, dt_zadd, dt_zscore.
    all: rewrite Hf; reflexivity.
  - destruct c; try discriminate Hd; injection Hd as <-; cbn [cmd_key dt_of a_cmd] in *; rewrite HA.
    all: destruct a; try reflexivity; contradiction Hne; reflexivity.
Qed.

(* the map after the writes of a plan, at the key and at its internal keys: [rewrite HM'; lookup] *)
Hint Rewrite beq_ikey beq_ikey_self beq_self_ikey beq_suffix bytes_eqb_refl : beq.
Ltac lookup := cbn [plan_ws wapply]; unfold upd; autorewrite with beq.

(* the conclusion for a command (its side conditions are cmd_ok, at the end): it succeeds on the map, replies
   as the abstract type does, and the two next states are related *)
Definition step_ok (n : N) (used : list N) (M : smap) (A : astate) (c : cmd) (ver now : N) : Prop :=
  exists r, snd (m_cmd M c ver now) = OReply r /\ canon r = snd (a_cmd A c now) /\ Rel (n + 1) (ver :: used) (fst (m_cmd M c ver now)) (fst (a_cmd A c now)).

Lemma confined_nil k vs : confined k vs [].
Proof. constructor. Qed.
Lemma confined_meta k vs v ws : confined k vs ws -> confined k vs (WPut k v :: ws).
Proof. intros Hc. constructor; [left; reflexivity|exact Hc]. Qed.
Lemma confined_put k (vs : N -> Prop) ver y v ws : vs ver -> confined k vs ws -> confined k vs (WPut (ikey k ver y) v :: ws).
Proof. intros Hv Hc. constructor; [right; exists ver, y; auto|exact Hc]. Qed.
Lemma confined_del k (vs : N -> Prop) ver y ws : vs ver -> confined k vs ws -> confined k vs (WDel (ikey k ver y) :: ws).
Proof. intros Hv Hc. constructor; [right; exists ver, y; auto|exact Hc]. Qed.
Hint Resolve confined_nil confined_meta confined_put confined_del : confined.

Lemma aupd_spec A k o : forall x, aupd A k o x = if bytes_eqb x k then o else A x.
Proof. reflexivity. Qed.

Lemma step_from n used M A c ver now r p oa' :
  Rel n used M A -> U (cmd_key c) -> V ver ->
  dt_cmd smap m_get M c ver now = (M, r, p) ->
  a_cmd A c now = (aupd A (cmd_key c) oa', canon r) ->
  confined (cmd_key c) (fun v => In v (ver :: used)) (plan_ws p) ->
  (forall M', (forall x, lk M' x = wapply (lk M) (plan_ws p) x) -> RelK (n + 1) (ver :: used) M' (cmd_key c) oa') ->
  step_ok n used M A c ver now.
Proof.
  intros HR Hk Hv Hdt HA Hc Hnew. unfold step_ok, m_cmd. rewrite Hdt, HA.
  assert (Hc' : confined (cmd_key c) (fun v => v = ver \/ In v used) (plan_ws p)).
  { eapply Forall_impl; [|exact Hc]. intros w [Hw|(v & y & [<-|Hv'] & Hw)]; eauto 6. }
  pose proof HR as (Hs & _).
  destruct (m_apply_spec M p Hs (confined_nonempty _ _ _ Hk Hc')) as (_ & _ & Hl).
  destruct (rel_step n used M A (cmd_key c) ver p oa' _ HR Hk Hv Hc' (aupd_spec A _ oa') (Hnew _ Hl)) as [He HR'].
  destruct (m_apply M p) as [M2 e]. cbn [fst snd] in *. subst e. exists r. auto.
Qed.

Lemma aupd_same A k a : A k = a -> forall x, aupd A k a x = A x.
Proof. intros H x. unfold aupd. destruct (bytes_eqb x k) eqn:E; [apply bytes_eqb_eq in E; subst; reflexivity|reflexivity]. Qed.

Lemma step_read n used M A c ver now r :
  Rel n used M A -> V ver ->
  dt_cmd smap m_get M c ver now = (M, r, PNone) ->
  (forall x, fst (a_cmd A c now) x = A x) -> canon r = snd (a_cmd A c now) ->
  step_ok n used M A c ver now.
Proof.
  intros HR Hv Hdt HA Hcan. unfold step_ok, m_cmd. rewrite Hdt. cbn [m_apply fst snd]. exists r. split; [reflexivity|]. split; [exact Hcan|].
  destruct HR as (Hs & HV & HK & HG). split; [exact Hs|]. split; [intros v [<-|Hv']; auto|]. split.
  - intros k Hk'. rewrite HA. apply (RelK_frame n (n + 1) used (ver :: used) M M _ _ (HK _ Hk')); auto using incl_tl, incl_refl. lia.
  - intros x Hx. destruct (HG x Hx) as [Hu|(k0 & v & y & Hk0 & Hv0 & ->)]; [left; exact Hu|]. right. exists k0, v, y. cbn [In]. auto.
Qed.

Lemma step_set n used M A k v ex ver now :
  Rel n used M A -> U k -> V ver -> ex < 2 ^ 63 -> step_ok n used M A (KSet k v ex) ver now.
Proof.
  intros HR Hk Hv Hex.
  apply (step_from n used M A (KSet k v ex) ver now DOk (PPut k (enc_string v ex)) (Some (AStr v ex))); cbn [plan_ws cmd_key]; auto with confined.
  intros M' HM'. cbn [RelK]. split; [|exact Hex]. rewrite HM'. lookup. reflexivity.
Qed.

Lemma step_del n used M A k ver now :
  Rel n used M A -> U k -> V ver -> step_ok n used M A (KDel k) ver now.
Proof.
  intros HR Hk Hv.
  apply (step_from n used M A (KDel k) ver now DOk (PDelete k) None); cbn [plan_ws cmd_key]; auto.
  - apply Forall_cons; [left; reflexivity|constructor].
  - intros M' HM'. cbn [RelK]. rewrite HM'. lookup. reflexivity.
Qed.

(* Get and Type look at the type byte only, unless the key holds a string *)
Lemma step_get n used M A k ver now :
  Rel n used M A -> U k -> V ver -> step_ok n used M A (KGet k) ver now.
Proof.
  intros HR Hk Hv. pose proof (U_nonempty k Hk) as Hne. pose proof HR as (_ & _ & HK & _). specialize (HK k Hk).
  assert (Hd : dt_cmd smap m_get M (KGet k) ver now = dt_get smap m_get M k now) by reflexivity.
  unfold dt_get in Hd. rewrite (proj2 (N.eqb_neq _ _) Hne), m_get_lk in Hd by exact Hne.
  destruct (A k) as [a|] eqn:EA.
  - destruct (RelK_raw_head _ _ _ _ _ HK) as [r Hr]. rewrite Hr in Hd.
    destruct a as [v ex|h|s|l|z]; try (eapply step_read; try exact Hd; auto; cbn [a_cmd fst snd]; rewrite EA; reflexivity).
    cbn [RelK] in HK. destruct HK as [Hl Hex]. rewrite Hl in Hr. injection Hr as <-.
    rewrite varint_nonneg_put, drop_app_exact in Hd by (exact Hex || reflexivity).
    eapply step_read; try exact Hd; auto; cbn [a_cmd fst snd]; rewrite EA.
    destruct ((0 <? ex) && (ex <=? now)); reflexivity.
  - cbn [RelK] in HK. rewrite HK in Hd.
    eapply step_read; try exact Hd; auto; cbn [a_cmd fst snd]; rewrite EA; reflexivity.
Qed.

Lemma step_type n used M A k ver now :
  Rel n used M A -> U k -> V ver -> step_ok n used M A (KType k) ver now.
Proof.
  intros HR Hk Hv. pose proof (U_nonempty k Hk) as Hne. pose proof HR as (_ & _ & HK & _). specialize (HK k Hk).
  assert (Hd : dt_cmd smap m_get M (KType k) ver now = dt_type smap m_get M k) by reflexivity.
  unfold dt_type in Hd. rewrite (proj2 (N.eqb_neq _ _) Hne), m_get_lk in Hd by exact Hne.
  destruct (A k) as [a|] eqn:EA.
  - destruct (RelK_raw_head _ _ _ _ _ HK) as [r Hr]. rewrite Hr in Hd.
    eapply step_read; try exact Hd; auto; cbn [a_cmd fst snd]; rewrite EA; reflexivity.
  - cbn [RelK] in HK. rewrite HK in Hd.
    eapply step_read; try exact Hd; auto; cbn [a_cmd fst snd]; rewrite EA; reflexivity.
Qed.

(* ---- structures: the container a command works on ---- *)
Lemma step_wrong n used M A c a t ver now :
  Rel n used M A -> U (cmd_key c) -> V ver -> cmd_cont c = Some t -> A (cmd_key c) = Some a -> kind a <> dt_of t ->
  step_ok n used M A c ver now.
Proof.
  intros HR Hk Hv Hd HA Hne. pose proof HR as (_ & _ & HK & _). specialize (HK _ Hk). rewrite HA in HK.
  destruct (cmd_wrong_type n used M A c a t ver now Hd (U_nonempty _ Hk) HA HK Hne) as [H1 H2].
  apply (step_read n used M A c ver now DWrongType); auto; rewrite H2; reflexivity.
Qed.

Lemma elems_fresh M k t ver : (forall y, lk M (ikey k ver y) = None) -> elems M k (fresh_meta (dt_of t) ver) (empty_of t).
Proof.
  intros H. destruct t; cbn [elems empty_of].
  - split; [apply sorted_nil|]. split; [reflexivity|]. intros f. apply H.
  - split; [apply sorted_nil|]. split; [reflexivity|]. split; [discriminate|]. intros x. apply H.
  - split; [reflexivity|]. split; [reflexivity|]. intros i Hi. destruct (N.nlt_0_r _ Hi).
  - split; [apply sorted_nil|]. split; [reflexivity|]. split; [discriminate|]. intros x _. apply H.
Qed.

Lemma meta_ok_fresh n used t ver : V ver -> meta_ok n (ver :: used) (fresh_meta (dt_of t) ver) (empty_of t).
Proof.
  intros Hv. split; [apply wf_fresh, V_bound, Hv|]. destruct t; (repeat split; [left; reflexivity|apply N.le_0_l]).
Qed.

Lemma meta_ok_size n used m a a' s :
  meta_ok n used m a -> kind a' = kind a -> s <= n + 1 -> n + 1 < 2 ^ 63 -> meta_ok (n + 1) used (with_size m s) a'.
Proof.
  intros Hm Hk Hs Hn. apply (meta_ok_upd n (n + 1) used used m (with_size m s) a a' Hm); auto using incl_refl.
  apply wf_with_size; [apply Hm|lia].
Qed.

(* A structure command on k either finds a value of another type, or works on the container of its type
   held under k's metadata; an absent k is the empty container under fresh metadata, for nothing lives
   under the new version. *)
Lemma view n used M A c t ver now :
  Rel n used M A -> U (cmd_key c) -> V ver -> ~ In ver used -> cmd_cont c = Some t ->
  (forall m b a, find smap m_get M (cmd_key c) (dt_of t) ver now = (M, FmMeta m b) ->
     meta_ok n (ver :: used) m a -> kind a = dt_of t -> elems M (cmd_key c) m a ->
     A (cmd_key c) = Some a /\ lk M (cmd_key c) = Some (enc_meta m) \/ A (cmd_key c) = None /\ a = empty_of t ->
     step_ok n used M A c ver now) ->
  step_ok n used M A c ver now.
Proof.
  intros HR Hk Hv Hfr Hc Hcont. pose proof HR as (_ & HV & HK & HG). specialize (HK _ Hk). pose proof (U_nonempty _ Hk) as Hne.
  destruct (A (cmd_key c)) as [a|] eqn:EA.
  - destruct (N.eq_dec (kind a) (dt_of t)) as [Hkd|Hkd]; [|exact (step_wrong n used M A c a t ver now HR Hk Hv Hc EA Hkd)].
    destruct (RelK_elim _ _ _ _ _ HK) as (m & Hl & Hm & Hel); [rewrite Hkd; destruct t; discriminate|].
    apply (Hcont m true a); auto.
    + rewrite <- Hkd. apply (find_hit n used); assumption.
    + apply (meta_ok_upd n n used (ver :: used) m m a a Hm); auto using incl_tl, incl_refl; apply Hm.
  - cbn [RelK] in HK. apply (Hcont (fresh_meta (dt_of t) ver) false (empty_of t)); auto.
    + apply find_fresh; assumption.
    + apply meta_ok_fresh. exact Hv.
    + destruct t; reflexivity.
    + apply elems_fresh. intros y. apply (fresh_empty used M _ ver y HG Hk Hv HV Hfr).
Qed.

Lemma step_hset n used M A k f v ver now :
  Rel n used M A -> U k -> V ver -> ~ In ver used -> n + 1 < 2 ^ 63 -> step_ok n used M A (KHSet k f v) ver now.
Proof.
  intros HR Hk Hv Hfr Hn. apply (view n used M A (KHSet k f v) CHash ver now HR Hk Hv Hfr eq_refl).
  cbn [cmd_key dt_of empty_of]. intros m b a Hfind Hm Hkd Hel HA. destruct a as [|h| | |]; try discriminate Hkd. destruct Hel as (Hsh & Hlen & Hel).
  pose proof Hm as (_ & _ & _ & Hu & Hsz).
  assert (Ha : a_cmd A (KHSet k f v) now = (aupd A k (Some (AHash (fst (amap_put h f v)))), DBool (negb (mem h f)))).
  { cbn [a_cmd]. destruct HA as [[-> _]|[-> [= ->]]]; reflexivity. }
  assert (Hd : dt_cmd smap m_get M (KHSet k f v) ver now = dt_hset smap m_get M k f v ver now) by reflexivity.
  unfold dt_hset in Hd. rewrite hash_key_ikey, Hfind, m_get_ikey, Hel in Hd.
  unfold mem in Ha. destruct (amap_get h f) as [old|] eqn:Eg.
  - (* overwritten: the size stays *)
    destruct HA as [[_ Hl]|[_ [= ->]]]; [|discriminate Eg].
    apply (step_from n used M A (KHSet k f v) ver now _ _ _ HR Hk Hv Hd Ha); cbn [plan_ws cmd_key]; auto with confined.
    intros M' HM'. apply (RelK_intro _ _ _ _ (with_size m (m_size m))).
    + rewrite HM', with_size_same. lookup. exact Hl.
    + apply (meta_ok_size _ _ _ _ _ _ Hm); [reflexivity|lia|exact Hn].
    + cbn [elems]. split; [apply amap_put_sorted; exact Hsh|]. split; [rewrite amap_put_len, Eg by exact Hsh; exact Hlen|].
      intros y. rewrite HM'. lookup. rewrite amap_get_put. destruct (bytes_eqb y f); [reflexivity|apply Hel].
  - apply (step_from n used M A (KHSet k f v) ver now _ _ _ HR Hk Hv Hd Ha); cbn [plan_ws cmd_key]; auto with confined.
    intros M' HM'. apply (RelK_intro _ _ _ _ (with_size m (m_size m + 1))).
    + rewrite HM'. lookup. reflexivity.
    + apply (meta_ok_size _ _ _ _ _ _ Hm); [reflexivity|lia|exact Hn].
    + cbn [elems]. split; [apply amap_put_sorted; exact Hsh|]. split; [rewrite amap_put_len, Eg, <- Hlen by exact Hsh; reflexivity|].
      intros y. rewrite HM'. lookup. rewrite amap_get_put. destruct (bytes_eqb y f); [reflexivity|apply Hel].
Qed.

Lemma step_hget n used M A k f ver now :
  Rel n used M A -> U k -> V ver -> ~ In ver used -> step_ok n used M A (KHGet k f) ver now.
Proof.
  intros HR Hk Hv Hfr. apply (view n used M A (KHGet k f) CHash ver now HR Hk Hv Hfr eq_refl).
  cbn [cmd_key dt_of empty_of]. intros m b a Hfind Hm Hkd Hel HA. destruct a as [|h| | |]; try discriminate Hkd. destruct Hel as (Hsh & Hlen & Hel).
  assert (Ha : a_cmd A (KHGet k f) now = (A, match amap_get h f with Some x => DBytes x | None => DNil end)).
  { cbn [a_cmd]. destruct HA as [[-> _]|[-> [= ->]]]; reflexivity. }
  assert (Hd : dt_cmd smap m_get M (KHGet k f) ver now = dt_hget smap m_get M k f ver now) by reflexivity.
  unfold dt_hget in Hd. rewrite hash_key_ikey, Hfind, m_get_ikey, Hel in Hd.
  destruct (m_size m =? 0) eqn:E0.
  - apply N.eqb_eq in E0. rewrite (amap_len0_get h f) in Ha by congruence.
    apply (step_read n used M A (KHGet k f) ver now _ HR Hv Hd); rewrite Ha; reflexivity.
  - apply (step_read n used M A (KHGet k f) ver now _ HR Hv Hd); rewrite Ha; [reflexivity|].
    cbn [snd]. destruct (amap_get h f); reflexivity.
Qed.

Lemma step_hdel n used M A k f ver now :
  Rel n used M A -> U k -> V ver -> ~ In ver used -> n + 1 < 2 ^ 63 -> step_ok n used M A (KHDel k f) ver now.
Proof.
  intros HR Hk Hv Hfr Hn. apply (view n used M A (KHDel k f) CHash ver now HR Hk Hv Hfr eq_refl).
  cbn [cmd_key dt_of empty_of]. intros m b a Hfind Hm Hkd Hel HA. destruct a as [|h| | |]; try discriminate Hkd. destruct Hel as (Hsh & Hlen & Hel).
  pose proof Hm as (_ & _ & _ & Hu & Hsz).
  assert (Hd : dt_cmd smap m_get M (KHDel k f) ver now = dt_hdel smap m_get M k f ver now) by reflexivity.
  unfold dt_hdel in Hd. rewrite hash_key_ikey, Hfind, m_get_ikey, Hel in Hd.
  destruct (amap_get h f) as [old|] eqn:Eg.
  - destruct HA as [[HA _]|[_ [= ->]]]; [|discriminate Eg].
    assert (Hpos : 0 < m_size m) by (rewrite Hlen; eapply amap_get_some_len; exact Eg).
    rewrite (proj2 (N.eqb_neq _ _)) in Hd by lia.
    assert (Ha : a_cmd A (KHDel k f) now = (aupd A k (Some (AHash (fst (amap_del h f)))), DBool true)).
    { cbn [a_cmd]. rewrite HA. unfold mem. rewrite Eg. reflexivity. }
    apply (step_from n used M A (KHDel k f) ver now _ _ _ HR Hk Hv Hd Ha); cbn [plan_ws cmd_key]; auto with confined.
    intros M' HM'. apply (RelK_intro _ _ _ _ (with_size m (m_size m - 1))).
    + rewrite HM'. lookup. reflexivity.
    + apply (meta_ok_size _ _ _ _ _ _ Hm); [reflexivity|lia|exact Hn].
    + cbn [elems]. split; [apply amap_del_sorted; exact Hsh|]. split; [rewrite amap_del_len, Eg, <- Hlen; reflexivity|].
      intros y. rewrite HM'. lookup. rewrite amap_get_del by exact Hsh. destruct (bytes_eqb y f); [reflexivity|apply Hel].
  - (* nothing to remove *)
    assert (Hd' : dt_cmd smap m_get M (KHDel k f) ver now = (M, DBool false, PNone)) by (rewrite Hd; destruct (m_size m =? 0); reflexivity).
    apply (step_read n used M A (KHDel k f) ver now _ HR Hv Hd'); cbn [a_cmd]; destruct HA as [[HA _]|[HA _]]; rewrite HA; try reflexivity.
    + cbn [fst]. rewrite (amap_del_absent h f Eg). apply aupd_same. exact HA.
    + unfold mem. rewrite Eg. reflexivity.
Qed.

Lemma step_sadd n used M A k x ver now :
  Rel n used M A -> U k -> V ver -> ~ In ver used -> n + 1 < 2 ^ 63 -> step_ok n used M A (KSAdd k x) ver now.
Proof.
  intros HR Hk Hv Hfr Hn. apply (view n used M A (KSAdd k x) CSet ver now HR Hk Hv Hfr eq_refl).
  cbn [cmd_key dt_of empty_of]. intros m b a Hfind Hm Hkd Hel HA. destruct a as [| |s| |]; try discriminate Hkd. destruct Hel as (Hsh & Hlen & Hval & Hel).
  pose proof Hm as (_ & _ & _ & Hu & Hsz).
  assert (Ha : a_cmd A (KSAdd k x) now = (aupd A k (Some (ASet (fst (amap_put s x [])))), DBool (negb (mem s x)))).
  { cbn [a_cmd]. destruct HA as [[-> _]|[-> [= ->]]]; reflexivity. }
  assert (Hd : dt_cmd smap m_get M (KSAdd k x) ver now = dt_sadd smap m_get M k x ver now) by reflexivity.
  unfold dt_sadd in Hd. rewrite Hfind, set_key_ikey, m_get_ikey, Hel in Hd.
  unfold mem in Ha. destruct (amap_get s x) as [old|] eqn:Eg.
  - (* already a member *)
    destruct HA as [[HA _]|[_ [= ->]]]; [|discriminate Eg]. rewrite (Hval x old Eg) in Eg.
    apply (step_read n used M A (KSAdd k x) ver now _ HR Hv Hd); rewrite Ha; [|reflexivity].
    cbn [fst]. rewrite (amap_put_same_val s x [] Hsh Eg). apply aupd_same. exact HA.
  - apply (step_from n used M A (KSAdd k x) ver now _ _ _ HR Hk Hv Hd Ha); cbn [plan_ws cmd_key]; auto with confined.
    intros M' HM'. apply (RelK_intro _ _ _ _ (with_size m (m_size m + 1))).
    + rewrite HM'. lookup. reflexivity.
    + apply (meta_ok_size _ _ _ _ _ _ Hm); [reflexivity|lia|exact Hn].
    + cbn [elems]. split; [apply amap_put_sorted; exact Hsh|]. split; [rewrite amap_put_len, Eg, <- Hlen by exact Hsh; reflexivity|].
      split; [intros y w; rewrite amap_get_put; destruct (bytes_eqb y x); [congruence|apply Hval]|].
      intros y. rewrite HM'. lookup. rewrite amap_get_put. destruct (bytes_eqb y x); [reflexivity|apply Hel].
Qed.

Lemma step_sismember n used M A k x ver now :
  Rel n used M A -> U k -> V ver -> ~ In ver used -> step_ok n used M A (KSIsMember k x) ver now.
Proof.
  intros HR Hk Hv Hfr. apply (view n used M A (KSIsMember k x) CSet ver now HR Hk Hv Hfr eq_refl).
  cbn [cmd_key dt_of empty_of]. intros m b a Hfind Hm Hkd Hel HA. destruct a as [| |s| |]; try discriminate Hkd. destruct Hel as (Hsh & Hlen & Hval & Hel).
  assert (Ha : a_cmd A (KSIsMember k x) now = (A, DBool (mem s x))).
  { cbn [a_cmd]. destruct HA as [[-> _]|[-> [= ->]]]; reflexivity. }
  assert (Hd : dt_cmd smap m_get M (KSIsMember k x) ver now = dt_sismember smap m_get M k x ver now) by reflexivity.
  unfold dt_sismember in Hd. rewrite Hfind, set_key_ikey, m_get_ikey, Hel in Hd. unfold mem in Ha.
  destruct (m_size m =? 0) eqn:E0.
  - apply N.eqb_eq in E0. rewrite (amap_len0_get s x) in Ha by congruence.
    apply (step_read n used M A (KSIsMember k x) ver now _ HR Hv Hd); rewrite Ha; reflexivity.
  - apply (step_read n used M A (KSIsMember k x) ver now _ HR Hv Hd); rewrite Ha; [reflexivity|].
    cbn [snd]. destruct (amap_get s x); reflexivity.
Qed.

Lemma step_srem n used M A k x ver now :
  Rel n used M A -> U k -> V ver -> ~ In ver used -> n + 1 < 2 ^ 63 -> step_ok n used M A (KSRem k x) ver now.
Proof.
  intros HR Hk Hv Hfr Hn. apply (view n used M A (KSRem k x) CSet ver now HR Hk Hv Hfr eq_refl).
  cbn [cmd_key dt_of empty_of]. intros m b a Hfind Hm Hkd Hel HA. destruct a as [| |s| |]; try discriminate Hkd. destruct Hel as (Hsh & Hlen & Hval & Hel).
  pose proof Hm as (_ & _ & _ & Hu & Hsz).
  assert (Hd : dt_cmd smap m_get M (KSRem k x) ver now = dt_srem smap m_get M k x ver now) by reflexivity.
  unfold dt_srem in Hd. rewrite Hfind, set_key_ikey, m_get_ikey, Hel in Hd.
  destruct (amap_get s x) as [old|] eqn:Eg.
  - destruct HA as [[HA _]|[_ [= ->]]]; [|discriminate Eg].
    assert (Hpos : 0 < m_size m) by (rewrite Hlen; eapply amap_get_some_len; exact Eg).
    rewrite (proj2 (N.eqb_neq _ _)) in Hd by lia.
    assert (Ha : a_cmd A (KSRem k x) now = (aupd A k (Some (ASet (fst (amap_del s x)))), DBool true)).
    { cbn [a_cmd]. rewrite HA. unfold mem. rewrite Eg. reflexivity. }
    apply (step_from n used M A (KSRem k x) ver now _ _ _ HR Hk Hv Hd Ha); cbn [plan_ws cmd_key]; auto with confined.
    intros M' HM'. apply (RelK_intro _ _ _ _ (with_size m (m_size m - 1))).
    + rewrite HM'. lookup. reflexivity.
    + apply (meta_ok_size _ _ _ _ _ _ Hm); [reflexivity|lia|exact Hn].
    + cbn [elems]. split; [apply amap_del_sorted; exact Hsh|]. split; [rewrite amap_del_len, Eg, <- Hlen; reflexivity|].
      split; [intros y w; rewrite amap_get_del by exact Hsh; destruct (bytes_eqb y x); [discriminate|apply Hval]|].
      intros y. rewrite HM'. lookup. rewrite amap_get_del by exact Hsh. destruct (bytes_eqb y x); [reflexivity|apply Hel].
  - assert (Hd' : dt_cmd smap m_get M (KSRem k x) ver now = (M, DBool false, PNone)) by (rewrite Hd; destruct (m_size m =? 0); reflexivity).
    apply (step_read n used M A (KSRem k x) ver now _ HR Hv Hd'); cbn [a_cmd]; destruct HA as [[HA _]|[HA _]]; rewrite HA; try reflexivity.
    + cbn [fst]. rewrite (amap_del_absent s x Eg). apply aupd_same. exact HA.
    + unfold mem. rewrite Eg. reflexivity.
Qed.

Lemma member_not_score y sc x : ZM y -> ZM x -> ZS sc -> bytes_eqb y (sc ++ x ++ le32 (len x)) = false.
Proof. intros H1 H2 H3. apply bytes_eqb_neq. apply ZSep; assumption. Qed.

Lemma step_zadd n used M A k sc x ver now :
  Rel n used M A -> U k -> V ver -> ~ In ver used -> n + 1 < 2 ^ 63 -> ZM x -> ZS sc ->
  step_ok n used M A (KZAdd k sc x) ver now.
Proof.
  intros HR Hk Hv Hfr Hn Hzx Hzs. apply (view n used M A (KZAdd k sc x) CZSet ver now HR Hk Hv Hfr eq_refl).
  cbn [cmd_key dt_of empty_of]. intros m b a Hfind Hm Hkd Hel HA. destruct a as [| | | |z]; try discriminate Hkd. destruct Hel as (Hsh & Hlen & Hdom & Hel).
  pose proof Hm as (_ & _ & _ & Hu & Hsz).
  assert (Ha : a_cmd A (KZAdd k sc x) now = (aupd A k (Some (AZSet (fst (amap_put z x sc)))), DBool (negb (mem z x)))).
  { cbn [a_cmd]. destruct HA as [[-> _]|[-> [= ->]]]; reflexivity. }
  assert (Hd : dt_cmd smap m_get M (KZAdd k sc x) ver now = dt_zadd smap m_get M k sc x ver now) by reflexivity.
  unfold dt_zadd in Hd. rewrite zmember_key_ikey, Hfind, m_get_ikey, (Hel x Hzx) in Hd.
  change (zscore_key ?a ?b ?c ?d) with (ikey a b (c ++ d ++ le32 (len d))) in Hd.
  assert (Hdom' : forall y w, amap_get (fst (amap_put z x sc)) y = Some w -> ZM y /\ ZS w).
  { intros y w. rewrite amap_get_put. destruct (bytes_eqb y x) eqn:Ey; [apply bytes_eqb_eq in Ey; subst y; intros [= <-]; auto|apply Hdom]. }
  unfold mem in Ha. destruct (amap_get z x) as [old|] eqn:Eg.
  - destruct HA as [[HA Hl]|[_ [= ->]]]; [|discriminate Eg]. destruct (Hdom x old Eg) as [_ Hzold].
    destruct (bytes_eqb old sc) eqn:Eo.
    + (* the same score: nothing happens *)
      apply bytes_eqb_eq in Eo. subst old.
      apply (step_read n used M A (KZAdd k sc x) ver now _ HR Hv Hd); rewrite Ha; [|reflexivity].
      cbn [fst]. rewrite (amap_put_same_val z x sc Hsh Eg). apply aupd_same. exact HA.
    + (* a new score: the old score-order record goes *)
      apply (step_from n used M A (KZAdd k sc x) ver now _ _ _ HR Hk Hv Hd Ha); cbn [plan_ws cmd_key]; auto with confined.
      intros M' HM'. apply (RelK_intro _ _ _ _ (with_size m (m_size m))).
      * rewrite HM', with_size_same. lookup. exact Hl.
      * apply (meta_ok_size _ _ _ _ _ _ Hm); [reflexivity|lia|exact Hn].
      * cbn [elems]. split; [apply amap_put_sorted; exact Hsh|]. split; [rewrite amap_put_len, Eg by exact Hsh; exact Hlen|].
        split; [exact Hdom'|]. intros y Hy. rewrite HM'. lookup. rewrite !member_not_score, amap_get_put by assumption.
        destruct (bytes_eqb y x); [reflexivity|apply Hel; exact Hy].
  - apply (step_from n used M A (KZAdd k sc x) ver now _ _ _ HR Hk Hv Hd Ha); cbn [plan_ws cmd_key]; auto with confined.
    intros M' HM'. apply (RelK_intro _ _ _ _ (with_size m (m_size m + 1))).
    + rewrite HM'. lookup. reflexivity.
    + apply (meta_ok_size _ _ _ _ _ _ Hm); [reflexivity|lia|exact Hn].
    + cbn [elems]. split; [apply amap_put_sorted; exact Hsh|]. split; [rewrite amap_put_len, Eg, <- Hlen by exact Hsh; reflexivity|].
      split; [exact Hdom'|]. intros y Hy. rewrite HM'. lookup. rewrite member_not_score, amap_get_put by assumption.
      destruct (bytes_eqb y x); [reflexivity|apply Hel; exact Hy].
Qed.

Lemma step_zscore n used M A k x ver now :
  Rel n used M A -> U k -> V ver -> ~ In ver used -> ZM x -> step_ok n used M A (KZScore k x) ver now.
Proof.
  intros HR Hk Hv Hfr Hzx. apply (view n used M A (KZScore k x) CZSet ver now HR Hk Hv Hfr eq_refl).
  cbn [cmd_key dt_of empty_of]. intros m b a Hfind Hm Hkd Hel HA. destruct a as [| | | |z]; try discriminate Hkd. destruct Hel as (Hsh & Hlen & Hdom & Hel).
  assert (Ha : a_cmd A (KZScore k x) now = (A, match amap_get z x with Some s => DScore s | None => DNil end)).
  { cbn [a_cmd]. destruct HA as [[-> _]|[-> [= ->]]]; reflexivity. }
  assert (Hd : dt_cmd smap m_get M (KZScore k x) ver now = dt_zscore smap m_get M k x ver now) by reflexivity.
  unfold dt_zscore in Hd. rewrite zmember_key_ikey, Hfind, m_get_ikey, (Hel x Hzx) in Hd.
  destruct (m_size m =? 0) eqn:E0.
  - apply N.eqb_eq in E0. rewrite (amap_len0_get z x) in Ha by congruence.
    apply (step_read n used M A (KZScore k x) ver now _ HR Hv Hd); rewrite Ha; reflexivity.
  - apply (step_read n used M A (KZScore k x) ver now _ HR Hv Hd); rewrite Ha; [reflexivity|].
    cbn [snd]. destruct (amap_get z x); reflexivity.
Qed.

Lemma nth_error_len {T} (l : list T) i : len l <= i -> nth_error l (N.to_nat i) = None.
Proof using V V_bound. intros H. apply nth_error_None. rewrite len_length in H. lia. Qed.

Lemma meta_ok_list n used m l l' s h t :
  meta_ok n used m (AList l) -> s <= n + 1 -> n + 1 < 2 ^ 63 -> h < 2 ^ 64 -> t < 2 ^ 64 ->
  meta_ok (n + 1) used (mkMeta (m_type m) (m_expire m) (m_version m) s h t) (AList l').
Proof.
  intros Hm Hs Hn Hh Ht. pose proof Hm as ((He & Hv & _) & Hty & _).
  apply (meta_ok_upd n (n + 1) used used m _ (AList l) (AList l') Hm); auto using incl_refl.
  apply wf_list_meta; auto. lia.
Qed.

Lemma step_push n used M A k e lft ver now :
  Rel n used M A -> U k -> V ver -> ~ In ver used -> n + 1 < 2 ^ 63 -> step_ok n used M A (KPush k e lft) ver now.
Proof.
  intros HR Hk Hv Hfr Hn. apply (view n used M A (KPush k e lft) CList ver now HR Hk Hv Hfr eq_refl).
  cbn [cmd_key dt_of empty_of]. intros m b a Hfind Hm Hkd Hel HA. destruct a as [| | |l|]; try discriminate Hkd. destruct Hel as (Hlen & Htail & Hel).
  pose proof Hm as ((Hw1 & Hw2 & Hw3 & Hw4 & Hw5 & _) & Ht & He & Hu & Hsz).
  assert (Ha : a_cmd A (KPush k e lft) now = (aupd A k (Some (AList (if lft then e :: l else l ++ [e]))), DSize (m_size m + 1))).
  { rewrite Hlen. cbn [a_cmd]. destruct HA as [[-> _]|[-> [= ->]]]; [reflexivity|]. destruct lft; reflexivity. }
  assert (Hd : dt_cmd smap m_get M (KPush k e lft) ver now = dt_push smap m_get M k e lft ver now) by reflexivity.
  unfold dt_push in Hd. rewrite Hfind, list_key_ikey in Hd.
  set (idx := if lft then wrap64 (m_head m + 18446744073709551615) else m_tail m) in *.
  set (m' := if lft then mkMeta (m_type m) (m_expire m) (m_version m) (m_size m + 1) idx (m_tail m)
             else mkMeta (m_type m) (m_expire m) (m_version m) (m_size m + 1) (m_head m) (wrap64 (m_tail m + 1))) in *.
  assert (Hidx : idx < 2 ^ 64) by (unfold idx; destruct lft; [apply wrap64_lt|exact Hw5]).
  assert (Hlt64 : len l + 1 < 2 ^ 64) by (apply (N.lt_trans _ (2 ^ 63)); [lia|reflexivity]).
  apply (step_from n used M A (KPush k e lft) ver now _ _ _ HR Hk Hv Hd Ha); cbn [plan_ws cmd_key]; auto with confined.
  intros M' HM'. apply (RelK_intro _ _ _ _ m').
  - rewrite HM'. lookup. reflexivity.
  - unfold m'. destruct lft; apply (meta_ok_list n _ m l _ _ _ _ Hm); try assumption; try apply wrap64_lt; lia.
  - assert (Hv' : m_version m' = m_version m) by (unfold m'; destruct lft; reflexivity).
    cbn [elems]. rewrite Hv'. split; [unfold m'; destruct lft; cbn [m_size]; rewrite Hlen, ?len_cons, ?len_app; reflexivity|].
    split.
    { unfold m', idx. destruct lft; cbn [m_head m_tail]; rewrite ?len_cons, ?len_app, Htail, wrap64_idem.
      - rewrite N.add_shuffle0, wrap64_pred by lia. f_equal. lia.
      - rewrite N.add_assoc. reflexivity. }
    unfold m', idx. destruct lft; cbn [m_head].
    + apply (list_at_cons (lk M)); [exact Hlt64|exact Hel|]. intros y. rewrite HM'. lookup. reflexivity.
    + apply (list_at_snoc (lk M)); [exact Hlt64|exact Hel|]. intros y. rewrite HM', <- Htail. lookup. reflexivity.
Qed.

Lemma step_pop n used M A k lft ver now :
  Rel n used M A -> U k -> V ver -> ~ In ver used -> n + 1 < 2 ^ 63 -> step_ok n used M A (KPop k lft) ver now.
Proof.
  intros HR Hk Hv Hfr Hn. apply (view n used M A (KPop k lft) CList ver now HR Hk Hv Hfr eq_refl).
  cbn [cmd_key dt_of empty_of]. intros m b a Hfind Hm Hkd Hel HA. destruct a as [| | |l|]; try discriminate Hkd. destruct Hel as (Hlen & Htail & Hel).
  pose proof Hm as ((Hw1 & Hw2 & Hw3 & Hw4 & Hw5 & _) & Ht & He & Hu & Hsz).
  assert (Hd : dt_cmd smap m_get M (KPop k lft) ver now = dt_pop smap m_get M k lft ver now) by reflexivity.
  unfold dt_pop in Hd. rewrite Hfind, list_key_ikey, m_get_ikey in Hd.
  destruct l as [|x r].
  - change (m_size m = 0) in Hlen. rewrite (proj2 (N.eqb_eq _ _) Hlen) in Hd.
    apply (step_read n used M A (KPop k lft) ver now _ HR Hv Hd); cbn [a_cmd]; destruct HA as [[-> _]|[-> _]]; reflexivity.
  - destruct HA as [[HA _]|[_ [=]]]. set (l := x :: r) in *.
    assert (Hpos : 0 < len l) by (unfold l; rewrite len_cons; lia).
    rewrite (proj2 (N.eqb_neq _ _)) in Hd by lia.
    assert (Hsplit : l = removelast l ++ [last l []]) by (apply app_removelast_last; discriminate).
    assert (Hrl : len (removelast l) = len l - 1).
    { apply (f_equal (@len _)) in Hsplit. rewrite len_app in Hsplit. change (len [last l []]) with 1 in Hsplit. lia. }
    set (idx := if lft then m_head m else wrap64 (m_tail m + 18446744073709551615)) in *.
    assert (Hidx : lk M (ikey k (m_version m) (le64 idx)) = Some (if lft then x else last l [])).
    { unfold idx. destruct lft.
      - rewrite <- (wrap64_small _ Hw4), <- (N.add_0_r (m_head m)). apply (Hel 0 Hpos).
      - rewrite Htail. apply (list_at_last (lk M)); [discriminate|exact Hel]. }
    rewrite Hidx in Hd.
    assert (Ha : a_cmd A (KPop k lft) now = (aupd A k (Some (AList (if lft then r else removelast l))), DBytes (if lft then x else last l []))).
    { cbn [a_cmd]. rewrite HA. unfold l. destruct lft; reflexivity. }
    set (m' := if lft then mkMeta (m_type m) (m_expire m) (m_version m) (m_size m - 1) (wrap64 (m_head m + 1)) (m_tail m)
               else mkMeta (m_type m) (m_expire m) (m_version m) (m_size m - 1) (m_head m) idx) in *.
    apply (step_from n used M A (KPop k lft) ver now _ _ _ HR Hk Hv Hd Ha); cbn [plan_ws cmd_key]; auto with confined.
    intros M' HM'. apply (RelK_intro _ _ _ _ m').
    + rewrite HM'. lookup. reflexivity.
    + unfold m', idx. destruct lft; apply (meta_ok_list n _ m l _ _ _ _ Hm); try assumption; try apply wrap64_lt; lia.
    + assert (Hv' : m_version m' = m_version m) by (unfold m'; destruct lft; reflexivity).
      assert (Hl' : len (if lft then r else removelast l) = len l - 1) by (destruct lft; [unfold l; rewrite len_cons; lia|exact Hrl]).
      cbn [elems]. rewrite Hv'. split; [rewrite Hl'; unfold m'; destruct lft; cbn [m_size]; rewrite Hlen; reflexivity|].
      split.
      { rewrite Hl'. unfold m', idx. destruct lft; cbn [m_head m_tail]; rewrite Htail, wrap64_idem.
        - f_equal. lia.
        - apply wrap64_pred. exact Hpos. }
      unfold m'. destruct lft; cbn [m_head].
      * apply (list_at_tl (lk M) _ _ _ _ x); [exact Hel|]. intros y. rewrite HM'. lookup. reflexivity.
      * apply (list_at_removelast (lk M)); [discriminate|exact Hel|]. intros y. rewrite HM'. lookup. reflexivity.
Qed.

Definition cmd_ok (c : cmd) : Prop :=
  match c with
  | KSet _ _ ex => ex < 2 ^ 63
  | KZAdd _ sc x => ZM x /\ ZS sc
  | KZScore _ x => ZM x
  | _ => True
  end.

Theorem step_refines n used M A c ver now :
  Rel n used M A -> U (cmd_key c) -> V ver -> ~ In ver used -> n + 1 < 2 ^ 63 -> cmd_ok c ->
  step_ok n used M A c ver now.
Proof using U V ZM ZS U_nonempty V_bound Sep1 Sep2 ZSep.
  intros HR Hk Hv Hfr Hn Hok. destruct c; cbn [cmd_key cmd_ok] in *.
  - apply step_set; assumption.
  - apply step_get; assumption.
  - apply step_del; assumption.
  - apply step_type; assumption.
  - apply step_hset; assumption.
  - apply step_hget; assumption.
  - apply step_hdel; assumption.
  - apply step_sadd; assumption.
  - apply step_sismember; assumption.
  - apply step_srem; assumption.
  - apply step_push; assumption.
  - apply step_pop; assumption.
  - destruct Hok. apply step_zadd; assumption.
  - apply step_zscore; assumption.
Qed.

Lemma Rel_init : Rel 0 [] [] (fun _ => None).
Proof.
  split; [apply sorted_nil|]. split; [intros v []|]. split; [intros k _; reflexivity|].
  intros x Hx. exfalso. apply Hx. reflexivity.
Qed.
End Refine.
