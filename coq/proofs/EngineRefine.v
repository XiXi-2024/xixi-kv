(* EngineRefine.v — every script of Put / Get / Delete / ListKeys / Fold / Stat / Sync / batches /
   Merge behaves like the same script on a plain ordered map (C01, C05, live part of C06). *)
From Coq Require Import ZArith Lia ZifyN ZifyNat ZifyBool Sorting.Sorted.
From KV Require Import Bytes GenConsts Chunk Record Engine Script BytesLemmas AMapLemmas
  EngineFiles EngineOps EngineInv EngineBatch.
Open Scope N_scope.

Lemma merge_files_spec c order d non_merge m d' res evs :
  InvF d -> merge_files c d order non_merge m = (d', res, evs) ->
  InvF d' /\ same_recs d d'.
Proof.
  intros HF H. pose proof (merge_files_touched_by c _ _ _ _ _ _ _ H) as Ht.
  split; [exact (InvF_touched d d' Ht HF)|exact (same_recs_touched d d' Ht)].
Qed.

Theorem db_merge_live d k m order d' k' e evs :
  Inv d -> R d m -> db_merge d k order = (d', k', e, evs) ->
  Inv d' /\ R d' m.
Proof.
  intros HI HR Hm.
  destruct (db_merge_shape _ _ _ _ _ _ _ Hm) as (d1 & ev1 & d2 & res & ev5 & Hrot & Hmf & _ & Hres).
  destruct (db_rotate_spec d d1 ev1 (proj1 HI) Hrot) as (HF1 & Hrec1 & Hix1 & _).
  destruct (merge_files_spec _ _ _ _ _ _ _ _ HF1 Hmf) as (HF2 & Hs2).
  assert (Hs : same_recs d d2) by (eapply same_recs_trans; [split; eassumption|exact Hs2]).
  pose proof (Inv_same d d2 HI HF2 Hs) as HI2. pose proof (R_same d d2 m Hs HR) as HR2.
  destruct res as [ms|er ms].
  - destruct Hres as ([evS Hsy] & _). exact (db_sync_spec _ _ _ _ HI2 HR2 Hsy).
  - destruct Hres as (-> & _). split; [exact HI2|exact HR2].
Qed.

Definition no_restart (o : op) : Prop := match o with OpRestart _ => False | _ => True end.

Theorem step_refines d k m o d' k' r evs :
  Inv d -> R d m -> no_restart o -> step (d, k) o = ((d', k'), r, evs) ->
  Inv d' /\ R d' (fst (sstep m o)) /\ proj r = proj (snd (sstep m o)).
Proof.
  intros HI HR Hnr Hst. apply step_cases in Hst.
  destruct o as [key v|key|key| | | | |sync id bops|order|c]; cbn [sstep].
  - (* Put *)
    destruct Hst as (_ & e & Hp & ->). destruct (db_put_spec _ _ _ _ _ _ _ HI HR Hp) as (HI1 & -> & HR1).
    destruct (s_put m key v). auto.
  - (* Get *)
    destruct Hst as (_ & v & Hg & ->). destruct (db_get_spec d m key HI HR) as (d1 & ev1 & Hg' & HI1 & HR1).
    rewrite Hg in Hg'. injection Hg' as <- <- _. auto.
  - (* Delete *)
    destruct Hst as (_ & e & Hp & ->). destruct (db_delete_spec _ _ _ _ _ _ HI HR Hp) as (HI1 & -> & HR1).
    destruct (s_del m key). auto.
  - (* ListKeys *)
    destruct Hst as (_ & -> & ->). cbn [fst snd]. rewrite (db_list_keys_spec d m HR). auto.
  - (* Fold *)
    destruct Hst as (_ & x & Hf & ->). destruct (db_fold_spec d m HI HR) as (d1 & ev1 & Hf' & HI1 & HR1).
    rewrite Hf in Hf'. injection Hf' as -> -> _. auto.
  - (* Stat *)
    destruct Hst as (_ & -> & ->). cbn [fst snd proj]. rewrite (db_keynum_spec d m HR). auto.
  - (* Sync *)
    destruct Hst as (_ & Hs & ->). destruct (db_sync_spec _ _ _ _ HI HR Hs) as (HI1 & HR1). auto.
  - (* a batch: NewBatch, the operations, Commit *)
    destruct Hst as (_ & d1 & b1 & rs & ev1 & b2 & e & ev2 & Hr & Hc & ->).
    destruct (run_bops_spec _ _ _ _ _ _ _ _ HI (BRel_start d m sync id HI HR) Hr) as (HI1 & HB1 & Hrs).
    destruct (batch_commit_view _ _ _ _ _ _ _ HI1 HB1 Hc) as (HI2 & HR2 & ->).
    destruct (s_bops m bops) as [mf rsf]. cbn [fst snd] in *. subst rs. auto.
  - (* Merge *)
    destruct Hst as (e & Hm & ->). destruct (db_merge_live _ _ _ _ _ _ _ _ HI HR Hm) as (HI1 & HR1). auto.
  - destruct Hnr.
Qed.

Theorem run_refines : forall ops d k m s' rs evs,
  Inv d -> R d m -> Forall no_restart ops -> run (d, k) ops = (s', rs, evs) ->
  map proj rs = map proj (srun m ops) /\ Inv (fst s') /\ exists m', R (fst s') m'.
Proof.
  intros ops d k m s' rs evs HI HR Hnr Hrun.
  destruct (run_refinement (fun s m => Inv (fst s) /\ R (fst s) m) no_restart) with (4 := Hrun) (m := m)
    as [Hrs [HI' HR']]; [|auto|exact Hnr|eauto].
  intros [d0 k0] m0 o [d1 k1] r e [H1 H2] Ho Hst. destruct (step_refines _ _ _ _ _ _ _ _ H1 H2 Ho Hst) as (A & B & C). auto.
Qed.

Definition empty_disk : disk := mkDisk [] None None.

Lemma db_open_empty c :
  db_open c empty_disk =
    (OpenOk (fresh_db c) (mkDisk [] None None), EvMkdirData :: snd (h_open (c_io c) (FData 0) false lf_empty)).
Proof.
  unfold db_open, empty_disk, fresh_db. cbn [load_merge_files k_merge k_data open_all].
  cbn [N.ltb N.compare]. cbn -[h_open db_rotate].
  rewrite <- (h_open_fst (c_io c) (FData 0) false lf_empty).
  destruct (h_open (c_io c) (FData 0) false lf_empty) as [n ev]. cbn [fst snd]. rewrite app_nil_r. reflexivity.
Qed.
Lemma fresh_db_Inv c : Inv (fresh_db c) /\ R (fresh_db c) [].
Proof.
  split; [|constructor]. split; [split|split]; cbn [fresh_db d_active d_older d_index].
  - intros r p Hin. rewrite (proj1 (opened_fields (c_io c) lf_empty)) in Hin. destruct Hin.
  - intros id f H. discriminate.
  - constructor.
  - intros k p [].
Qed.
Lemma open_empty c d k evs : db_open c empty_disk = (OpenOk d k, evs) -> Inv d /\ R d [].
Proof. rewrite db_open_empty. intros [= <- _ _]. apply fresh_db_Inv. Qed.
