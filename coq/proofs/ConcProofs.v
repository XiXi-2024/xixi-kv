(* ConcProofs.v — concurrent Put / Delete / Get are linearizable: the invariant of a concurrent
   execution (C08). *)
From Coq Require Import ZArith Lia.
From KV Require Import Bytes GenConsts Record Engine Script Conc AMapLemmas EngineOps EngineInv EngineRecover
  ListLemmas.
Open Scope N_scope.

Lemma append_index_conc d m r d1 p evs : LogInv d m -> r_batch r = 0 -> db_append d r = (d1, p, evs) ->
  LogInv (idx_upd d1 r p) (rec_apply m r) /\ extends d (idx_upd d1 r p).
Proof.
  intros HL Hb Happ. split; [exact (proj1 (append_index_log d m r d1 p evs HL Hb Happ))|].
  destruct (db_append_spec _ _ _ _ _ (LogInv_InvF d m HL) Happ) as (_ & Hext & _).
  intros q x Hq. rewrite (rec_at_index_only _ _ (idx_upd_index_only d1 r p)). exact (Hext q x Hq).
Qed.
Lemma db_put_conc d m k v d' e evs : LogInv d m -> db_put d k v = (d', e, evs) ->
  LogInv d' (fst (s_put m k v)) /\ e = snd (s_put m k v) /\ extends d d'.
Proof.
  intros HL Hput. unfold s_put.
  destruct (db_put_cases _ _ _ _ _ _ Hput) as [(-> & -> & -> & _)|(-> & -> & d1 & p & Happ & ->)].
  - split; [exact HL|]. split; [reflexivity|apply extends_refl].
  - destruct (append_index_conc d m (mkRec rt_Normal k v 0) d1 p evs HL eq_refl Happ) as [A B]. auto.
Qed.
Lemma db_delete_conc d m k d' e evs : LogInv d m -> db_delete d k = (d', e, evs) ->
  LogInv d' (fst (s_del m k)) /\ e = snd (s_del m k) /\ extends d d'.
Proof.
  intros HL Hdel. pose proof (LogInv_R d m HL) as HR. pose proof (R_get d m k HR) as Hg.
  destruct (db_delete_spec _ _ _ _ _ _ (LogInv_Inv d m HL) HR Hdel) as (_ & He & _). unfold s_del in *.
  destruct (db_delete_cases _ _ _ _ _ Hdel) as [(Ek & -> & _)|[(Ek & Eg & -> & _)|(Ek & _ & d1 & p & Happ & -> & _)]];
    rewrite Ek in *; cbn [fst snd] in *.
  - auto using extends_refl.
  - rewrite Eg in Hg. rewrite (amap_del_absent m k Hg). auto using extends_refl.
  - destruct (append_index_conc d m (mkRec rt_Deleted k [] 0) d1 p evs HL eq_refl Happ) as [A B]. auto.
Qed.

Definition res_at (M0 : smap) (L : list lin) (n : nat) : option lres := nth_error (snd (lin_run M0 L)) n.

Definition pending_ok (d : db) (M0 : smap) (L : list lin) (t : tstate) : Prop :=
  match t with
  | TIdle _ => True
  | TReading st None _ _ => res_at M0 L st = Some (inr (inr EKeyNotFound))
  | TReading st (Some p) _ _ => exists v, val_at d p = Some v /\ res_at M0 L st = Some (inr (inl v))
  end.

Definition CInv (M0 : smap) (s : cstate) : Prop :=
  LogInv (c_db s) (fst (lin_run M0 (c_lins s))) /\
  Forall (pending_ok (c_db s) M0 (c_lins s)) (c_threads s) /\
  Forall (fun x => res_at M0 (c_lins s) (fst (done_res x)) = Some (snd (done_res x))) (c_hist s).

Lemma lin_run_app M0 L l :
  lin_run M0 (L ++ [l]) =
  (fst (lin_apply (fst (lin_run M0 L)) l), snd (lin_run M0 L) ++ [snd (lin_apply (fst (lin_run M0 L)) l)]).
Proof.
  revert M0. induction L as [|a L IH]; intros M0; cbn [app lin_run fst snd].
  - destruct (lin_apply M0 l) as [M1 x]. reflexivity.
  - destruct (lin_apply M0 a) as [M1 x]. rewrite IH. destruct (lin_run M1 L) as [M2 xs]. cbn [fst snd app]. reflexivity.
Qed.
Lemma lin_run_len M0 L : length (snd (lin_run M0 L)) = length L.
Proof.
  revert M0. induction L as [|a L IH]; intros M0; cbn [lin_run]; [reflexivity|].
  destruct (lin_apply M0 a) as [M1 x]. specialize (IH M1). destruct (lin_run M1 L) as [M2 xs]. cbn [snd length] in *. lia.
Qed.
Lemma res_at_app_old M0 L l n x : res_at M0 L n = Some x -> res_at M0 (L ++ [l]) n = Some x.
Proof.
  unfold res_at. rewrite lin_run_app. cbn [snd]. intros H. rewrite nth_error_app1; [exact H|].
  apply nth_error_Some. rewrite H. discriminate.
Qed.
Lemma res_at_app_new M0 L l : res_at M0 (L ++ [l]) (length L) = Some (snd (lin_apply (fst (lin_run M0 L)) l)).
Proof.
  unfold res_at. rewrite lin_run_app. cbn [snd]. rewrite nth_error_app2 by (rewrite lin_run_len; lia).
  rewrite lin_run_len, Nat.sub_diag. reflexivity.
Qed.

Lemma lin_apply_put M tid k v : lin_apply M (LPut tid k v) = (fst (s_put M k v), inl (snd (s_put M k v))).
Proof. cbn [lin_apply]. destruct (s_put M k v). reflexivity. Qed.
Lemma lin_apply_del M tid k : lin_apply M (LDel tid k) = (fst (s_del M k), inl (snd (s_del M k))).
Proof. cbn [lin_apply]. destruct (s_del M k). reflexivity. Qed.

Lemma pending_mono d d' M0 L L' t : extends d d' -> (forall n x, res_at M0 L n = Some x -> res_at M0 L' n = Some x) ->
  pending_ok d M0 L t -> pending_ok d' M0 L' t.
Proof.
  intros He HL. destruct t as [todo|st [p|] k todo]; cbn [pending_ok]; [auto| |apply HL].
  intros (v & Hv & Hr). exists v. split; [eapply val_at_extends; eassumption|apply HL; exact Hr].
Qed.

Lemma Forall_nth_error {A} (P : A -> Prop) l i x : Forall P l -> nth_error l i = Some x -> P x.
Proof. intros H Hn. rewrite Forall_forall in H. apply H. eapply nth_error_In. exact Hn. Qed.

(* an action that is a linearization point: it appends [l] to the linearization, leaves client [tid]
   in [t'], and the calls [hs] it completes (none or one) return what [l] returns in the specification *)
Lemma cinv_lin_step M0 s tid d' l t' hs :
  CInv M0 s -> extends (c_db s) d' ->
  LogInv d' (fst (lin_apply (fst (lin_run M0 (c_lins s))) l)) ->
  pending_ok d' M0 (c_lins s ++ [l]) t' ->
  Forall (fun x => done_res x = (length (c_lins s), snd (lin_apply (fst (lin_run M0 (c_lins s))) l))) hs ->
  CInv M0 (mkC d' (set_nth (c_threads s) tid t') (c_hist s ++ hs) (c_lins s ++ [l])).
Proof.
  intros (_ & Hp & Hh) Hext HL Ht Hhs. unfold CInv. cbn [c_db c_threads c_hist c_lins]. split; [|split].
  - rewrite lin_run_app. exact HL.
  - rewrite set_nth_upd. apply Forall_upd; [|exact Ht]. eapply Forall_impl; [|exact Hp].
    intros t. apply pending_mono; [exact Hext|]. intros n x. apply res_at_app_old.
  - apply Forall_app. split; (eapply Forall_impl; [|eassumption]); cbv beta; intros x Hx.
    + apply res_at_app_old. exact Hx.
    + rewrite Hx. apply res_at_app_new.
Qed.
Lemma cinv_complete M0 s tid d' todo x :
  CInv M0 s -> extends (c_db s) d' -> LogInv d' (fst (lin_run M0 (c_lins s))) ->
  res_at M0 (c_lins s) (fst (done_res x)) = Some (snd (done_res x)) ->
  CInv M0 (mkC d' (set_nth (c_threads s) tid (TIdle todo)) (c_hist s ++ [x]) (c_lins s)).
Proof.
  intros (_ & Hp & Hh) Hext HL Hx. unfold CInv. cbn [c_db c_threads c_hist c_lins]. split; [exact HL|]. split.
  - rewrite set_nth_upd. apply Forall_upd; [|exact I]. eapply Forall_impl; [|exact Hp].
    intros t. apply pending_mono; [exact Hext|auto].
  - apply Forall_app. split; [exact Hh|]. constructor; [exact Hx|constructor].
Qed.

Theorem cstep_inv M0 s tid : CInv M0 s -> CInv M0 (cstep s tid).
Proof.
  intros HC. pose proof HC as (HL & Hp & _). unfold cstep.
  destruct (nth_error (c_threads s) tid) as [t|] eqn:Et; [|exact HC].
  set (M := fst (lin_run M0 (c_lins s))) in *.
  destruct t as [[|[k v|k|k] todo]|st [p|] k todo]; [exact HC| | | | |].
  - destruct (db_put (c_db s) k v) as [[d' e] evs] eqn:Hput. destruct (db_put_conc _ _ _ _ _ _ _ HL Hput) as (HL' & -> & Hext).
    apply cinv_lin_step; [exact HC|exact Hext| |exact I|]; fold M; rewrite lin_apply_put.
    + exact HL'.
    + repeat constructor.
  - destruct (db_delete (c_db s) k) as [[d' e] evs] eqn:Hdel. destruct (db_delete_conc _ _ _ _ _ _ HL Hdel) as (HL' & -> & Hext).
    apply cinv_lin_step; [exact HC|exact Hext| |exact I|]; fold M; rewrite lin_apply_del.
    + exact HL'.
    + repeat constructor.
  - (* Get: the index lookup; what it finds is what the specification returns at this point *)
    destruct (len k =? 0) eqn:Ek.
    + apply cinv_lin_step; [exact HC|apply extends_refl|exact HL|exact I|]. constructor; [|constructor].
      cbn [done_res lin_apply snd]. unfold s_get. rewrite Ek. reflexivity.
    + rewrite <- (app_nil_r (c_hist s)). apply cinv_lin_step; [exact HC|apply extends_refl|exact HL| |constructor].
      pose proof (R_get (c_db s) M k (LogInv_R _ _ HL)) as Hg. destruct (idx_get (d_index (c_db s)) k) as [p|]; cbn [pending_ok];
        rewrite res_at_app_new; cbn [lin_apply snd]; fold M; unfold s_get; rewrite Ek.
      * destruct Hg as (v & Hv & Hmk). exists v. rewrite Hmk. auto.
      * rewrite Hg. reflexivity.
  - (* Get: the file read; records are never moved or overwritten *)
    destruct (Forall_nth_error _ _ _ _ Hp Et) as (v & Hv & Hr). unfold val_at in Hv.
    destruct (rec_at (c_db s) p) as [r|] eqn:Er; [|discriminate]. destruct (r_type r =? rt_Deleted); [discriminate|]. injection Hv as <-.
    destruct (db_read_value _ _ _ Er) as (d' & evs & Hrd). rewrite Hrd. pose proof (db_read_touched _ _ _ _ _ Hrd) as Ht.
    apply cinv_complete; [exact HC| |exact (LogInv_touched _ _ _ HL Ht)|exact Hr].
    intros q x Hq. rewrite (rec_at_touched _ _ Ht). exact Hq.
  - apply cinv_complete; [exact HC|apply extends_refl|exact HL|exact (Forall_nth_error _ _ _ _ Hp Et)].
Qed.

Theorem crun_inv M0 : forall sched s, CInv M0 s -> CInv M0 (crun s sched).
Proof.
  induction sched as [|t sched IH]; intros s H; [exact H|]. cbn [crun fold_left]. apply IH. apply cstep_inv. exact H.
Qed.
