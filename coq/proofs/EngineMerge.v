(* EngineMerge.v — what Merge writes: the rewritten files hold, as plain records, exactly the
   records the index points to (one per live key, with its current value), the hint file lists
   their keys and new positions in the same order (C18), and replaying the rewritten files yields
   the mapping of the database at the time of the merge (C06).  At the end: what the hint file says
   about the rewritten files (that loading it equals scanning them is EngineOpen.hint_index_equals_scan_index). *)
From Coq Require Import ZArith Lia ZifyN ZifyNat ZifyBool Sorting.Sorted.
From KV Require Import Bytes GenConsts Chunk Record Engine Script BytesLemmas AMapLemmas
  EngineFiles EngineOps EngineInv EngineBatch EngineRefine EngineLog EngineRecover EngineOpen EngineAdopt.
Open Scope N_scope.

Definition ms_recs (m : mstate) : list (record * pos) := recs_of (ms_older m) ++ lf_recs (ms_active m).

(* MF, the merge files: the files part of the invariant of the merge output; the last conjunct (the ids are
   contiguous from 0) is what loadMergeFiles relies on when it counts the rewritten files *)
Definition MF (m : mstate) : Prop :=
  wf_lfile (ms_active m) /\ pos_ok (ms_active_id m) (ms_active m) /\
  ids_below (ms_older m) (ms_active_id m) /\
  Forall (fun x => wf_lfile (snd x) /\ pos_ok (fst x) (snd x)) (ms_older m) /\
  (forall x, x < ms_active_id m -> older_get (ms_older m) x <> None).
(* MH, the merge hints: one hint entry per rewritten record, same order; only plain live records *)
Definition MH (m : mstate) : Prop :=
  hf_recs (ms_hint m) = hint_of (ms_recs m) /\ Forall (fun rp => plain_live (fst rp)) (ms_recs m).

Definition plainify (r : record) : record := mkRec (r_type r) (r_key r) (r_value r) 0.

Lemma recs_of_single id f : recs_of [(id, f)] = lf_recs f.
Proof. unfold recs_of. cbn [map concat snd]. apply app_nil_r. Qed.

Lemma older_get_app_last o id f x : ids_below o id ->
  older_get (o ++ [(id, f)]) x = if x =? id then Some f else older_get o x.
Proof. intros H. rewrite <- (older_set_append o id f H). apply older_get_set. Qed.

Lemma ms_init_ok io : MF (ms_init io) /\ MH (ms_init io) /\ ms_recs (ms_init io) = [].
Proof.
  assert (Ha : lf_recs (ms_active (ms_init io)) = []) by exact (proj1 (opened_fields io lf_empty)).
  assert (Hrecs : ms_recs (ms_init io) = []) by exact Ha.
  assert (Hno : forall r p, ~ In (r, p) (lf_recs (ms_active (ms_init io)))) by (intros r p Hin; rewrite Ha in Hin; exact Hin).
  split; [|split; [|exact Hrecs]].
  - split; [intros r p Hin; destruct (Hno r p Hin)|]. split; [intros r p Hin; destruct (Hno r p Hin)|].
    split; [exact I|]. split; [constructor|]. cbn [ms_init ms_active_id]. intros x Hx. lia.
  - unfold MH. rewrite Hrecs. split; [|constructor]. cbn [ms_init ms_hint]. unfold hf_open_new. destruct (io =? io_MMap); reflexivity.
Qed.

Lemma ms_rotated_ok c m : MF m -> MF (ms_rotated c m) /\ ms_recs (ms_rotated c m) = ms_recs m.
Proof.
  intros (Hwf & Hpo & Hbel & Hall & Hpres). pose proof (proj1 (opened_fields (c_io c) lf_empty)) as Hn.
  unfold MF, ms_recs. cbn [ms_rotated ms_active ms_active_id ms_older].
  rewrite (older_set_append _ _ (synced (ms_active m)) Hbel), recs_of_app, recs_of_single, Hn, app_nil_r.
  split; [|reflexivity].
  split; [intros r p Hin; rewrite Hn in Hin; destruct Hin|].
  split; [intros r p Hin; rewrite Hn in Hin; destruct Hin|].
  split; [apply ids_below_app; exact Hbel|]. split.
  - apply Forall_app. split; [exact Hall|]. constructor; [|constructor]. split; [exact Hwf|exact Hpo].
  - intros x Hx. rewrite (older_get_app_last _ _ _ _ Hbel). destruct (x =? ms_active_id m) eqn:E; [discriminate|].
    apply Hpres. lia.
Qed.

Lemma ms_append_spec c m r m' p evs :
  MF m -> ms_append c m r = (m', p, evs) ->
  MF m' /\ ms_recs m' = ms_recs m ++ [(r, p)] /\ ms_hint m' = ms_hint m.
Proof.
  intros HF Happ. destruct (ms_append_shape _ _ _ _ _ _ Happ) as (m1 & a & ev2 & Hm1 & Hla & ->).
  assert (H1 : MF m1 /\ ms_recs m1 = ms_recs m /\ ms_hint m1 = ms_hint m).
  { destruct Hm1 as [[-> _]| ->]; [auto|]. destruct (ms_rotated_ok c m HF). auto. }
  destruct H1 as ((Hwf1 & Hpo1 & Hrest1) & Hrecs1 & Hh1).
  destruct (lf_append_ok _ _ _ _ _ _ _ _ Hwf1 Hpo1 Hla) as [Hwfa Hpoa]. destruct (lf_append_fields _ _ _ _ _ _ _ _ Hla) as (Hra & _).
  unfold MF, ms_recs in *. cbn [ms_active ms_active_id ms_older ms_hint].
  split; [|split; [rewrite Hra, app_assoc, Hrecs1; reflexivity|exact Hh1]].
  split; [exact Hwfa|]. split; [exact Hpoa|exact Hrest1].
Qed.

Lemma ms_emit c m r m1 np ev1 m2 ev2 :
  MF m -> MH m -> plain_live r ->
  ms_append c m r = (m1, np, ev1) -> ms_hint_append c m1 (r_key r) np = (m2, ev2) ->
  MF m2 /\ MH m2 /\ ms_recs m2 = ms_recs m ++ [(r, np)] /\ ms_active_id m2 = ms_active_id m1.
Proof.
  intros HF [Hh Hpl] Hr Happ Hha.
  destruct (ms_append_spec _ _ _ _ _ _ HF Happ) as (HF1 & Hrecs1 & Hh1).
  destruct (ms_hint_append_spec _ _ _ _ _ _ Hha) as (A & B & C & D).
  assert (Hrecs2 : ms_recs m2 = ms_recs m ++ [(r, np)]) by (unfold ms_recs; rewrite B, C; exact Hrecs1).
  split; [unfold MF; rewrite A, B, C; exact HF1|]. split; [|split; [exact Hrecs2|exact A]]. split.
  - rewrite D, Hh1, Hh, Hrecs2. unfold hint_of. rewrite map_app. reflexivity.
  - rewrite Hrecs2. apply Forall_app. split; [exact Hpl|]. constructor; [exact Hr|constructor].
Qed.

(* what a run of writes keeps and adds *)
Lemma ms_emits_ok c nm m l m' : ms_emits c nm m l m' -> MF m -> MH m -> ms_active_id m < nm -> Forall plain_live l ->
  MF m' /\ MH m' /\ ms_active_id m' < nm /\ map fst (ms_recs m') = map fst (ms_recs m) ++ l.
Proof.
  induction 1 as [|m r m1 np ev1 m2 ev2 l m' Ha Hlt1 Hh _ IH]; intros HF HH Hlt Hl; [rewrite app_nil_r; auto|].
  destruct (ms_emit _ _ _ _ _ _ _ _ HF HH (Forall_inv Hl) Ha Hh) as (HF2 & HH2 & Hrecs2 & Hid2).
  destruct (IH HF2 HH2 ltac:(lia) (Forall_inv_tail Hl)) as (I1 & I2 & I3 & I4).
  rewrite I4, Hrecs2, map_app, <- app_assoc. auto.
Qed.

(* ---- the scan of one input file ----------------------------------------------------------------------- *)
Definition live_in (ix : index) (fid : N) (rp : record * pos) : bool :=
  match idx_get ix (r_key (fst rp)) with
  | Some q => (p_fid q =? fid) && (p_off q =? p_off (snd rp)) && (p_bid q =? p_bid (snd rp))
  | None => false
  end.
Definition rewritten (ix : index) (fid : N) (rs : list (record * pos)) : list record :=
  map (fun rp => plainify (fst rp)) (filter (live_in ix fid) rs).

Lemma live_in_true ix fid r p : live_in ix fid (r, p) = true <->
  exists q, idx_get ix (r_key r) = Some q /\ p_fid q = fid /\ p_off q = p_off p /\ p_bid q = p_bid p.
Proof.
  unfold live_in. cbn [fst snd]. destruct (idx_get ix (r_key r)) as [q|]; split.
  - intros H. exists q. split; [reflexivity|lia].
  - intros (q' & [= <-] & H). lia.
  - discriminate.
  - intros (q & [=] & _).
Qed.

Lemma rewritten_cons ix fid rp rs :
  rewritten ix fid (rp :: rs) = (if live_in ix fid rp then [plainify (fst rp)] else []) ++ rewritten ix fid rs.
Proof. unfold rewritten. cbn [filter]. destruct (live_in ix fid rp); reflexivity. Qed.

Lemma merge_file_cons c ix fid nm m r p rs :
  merge_file c ix fid nm m ((r, p) :: rs) =
  if live_in ix fid (r, p) then
    let '(m1, np, ev1) := ms_append c m (plainify r) in
    if nm <=? ms_active_id m1 then (MsErr EMergeOutputTooLarge m1, ev1) else
    let '(m2, ev2) := ms_hint_append c m1 (r_key r) np in
    let '(res, ev3) := merge_file c ix fid nm m2 rs in (res, ev1 ++ ev2 ++ ev3)
  else merge_file c ix fid nm m rs.
Proof. cbn [merge_file]. unfold live_in. cbn [fst snd]. destruct (idx_get ix (r_key r)); reflexivity. Qed.

Lemma merge_file_emits c ix fid nm : forall rs m m' evs,
  merge_file c ix fid nm m rs = (MsOk m', evs) -> ms_emits c nm m (rewritten ix fid rs) m'.
Proof.
  induction rs as [|[r p] rs IH]; intros m m' evs Hm.
  - injection Hm as <- _. constructor.
  - rewrite merge_file_cons in Hm. rewrite rewritten_cons. destruct (live_in ix fid (r, p)); [|exact (IH _ _ _ Hm)].
    destruct (ms_append c m (plainify r)) as [[m1 np] ev1] eqn:Happ.
    destruct (nm <=? ms_active_id m1) eqn:Enm; [discriminate|]. apply N.leb_gt in Enm.
    destruct (ms_hint_append c m1 (r_key r) np) as [m2 ev2] eqn:Hha.
    destruct (merge_file c ix fid nm m2 rs) as [res3 ev3] eqn:Hrest. injection Hm as -> _.
    exact (emits_cons _ _ _ _ _ _ _ _ _ _ _ Happ Enm Hha (IH _ _ _ Hrest)).
Qed.

Definition frecs (d : db) (fid : N) : list (record * pos) :=
  match older_get (d_older d) fid with Some f => lf_recs f | None => [] end.
Definition merged_log (d : db) (order : list N) : list record :=
  concat (map (fun fid => rewritten (d_index d) fid (frecs d fid)) order).
(* a record the scan finds live is no tombstone *)
Definition live_typed (d : db) : Prop :=
  forall fid rp, In rp (frecs d fid) -> live_in (d_index d) fid rp = true -> (r_type (fst rp) =? rt_Deleted) = false.

Lemma frecs_some d fid f : older_get (d_older d) fid = Some f -> frecs d fid = lf_recs f.
Proof. intros H. unfold frecs. rewrite H. reflexivity. Qed.
Lemma frecs_none d fid : older_get (d_older d) fid = None -> frecs d fid = [].
Proof. intros H. unfold frecs. rewrite H. reflexivity. Qed.

Lemma frecs_touch d fid f f' x : older_get (d_older d) fid = Some f -> lf_recs f' = lf_recs f ->
  frecs (set_older d (older_set (d_older d) fid f')) x = frecs d x.
Proof.
  intros Hg Hr. unfold frecs. cbn [set_older d_older]. rewrite older_get_set.
  destruct (x =? fid) eqn:E; [|reflexivity]. assert (x = fid) by lia. subst x. rewrite Hg. exact Hr.
Qed.

Lemma in_merged_log d order r0 : In r0 (merged_log d order) <->
  exists fid rp, In fid order /\ In rp (frecs d fid) /\ live_in (d_index d) fid rp = true /\ r0 = plainify (fst rp).
Proof.
  unfold merged_log, rewritten. rewrite in_concat. split.
  - intros (l & Hl & Hr0). apply in_map_iff in Hl. destruct Hl as (fid & <- & Hfid).
    apply in_map_iff in Hr0. destruct Hr0 as (rp & <- & Hf). apply filter_In in Hf. exists fid, rp. tauto.
  - intros (fid & rp & Hfid & Hin & Hlive & ->). eexists. split; [apply in_map_iff; exists fid; eauto|].
    apply in_map_iff. exists rp. split; [reflexivity|]. apply filter_In. auto.
Qed.

Lemma merge_files_emits c nm : forall order d m d' m' evs,
  merge_files c d order nm m = (d', MsOk m', evs) -> ms_emits c nm m (merged_log d order) m'.
Proof.
  induction order as [|fid order IH]; intros d m d' m' evs Hm; cbn [merge_files] in Hm.
  - injection Hm as _ <- _. constructor.
  - unfold merged_log. cbn [map concat]. fold (merged_log d order).
    destruct (older_get (d_older d) fid) as [f|] eqn:Hg.
    2: { rewrite (frecs_none d fid Hg). exact (IH d m d' m' evs Hm). }
    pose proof (proj1 (scan_touch_remapped (c_io c) (FData fid) f)) as Hr.
    destruct (scan_touch (c_io c) (FData fid) f) as [f' ev0]. cbn [fst] in Hr.
    set (d1 := set_older d (older_set (d_older d) fid f')) in *.
    destruct (merge_file c (d_index d1) fid nm m (lf_recs f')) as [[m1|e1 m1] ev1] eqn:Hmf; [|discriminate].
    change (d_index d1) with (d_index d) in Hmf. rewrite Hr, <- (frecs_some d fid f Hg) in Hmf.
    destruct (merge_files c d1 order nm m1) as [[d2 res2] ev2] eqn:Hrest. injection Hm as _ -> _.
    apply (ms_emits_app _ _ _ _ _ _ _ (merge_file_emits _ _ _ _ _ _ _ _ Hmf)).
    (* touching the file has changed neither the records nor the index *)
    replace (merged_log d order) with (merged_log d1 order); [exact (IH _ _ _ _ _ Hrest)|].
    unfold merged_log. change (d_index d1) with (d_index d). f_equal. apply map_ext. intros x.
    f_equal. exact (frecs_touch d fid f f' x Hg Hr).
Qed.

Lemma apply_puts_get M : forall L m k, Forall (fun r => (r_type r =? rt_Deleted) = false) L ->
  (forall r, In r L -> amap_get M (r_key r) = Some (r_value r)) ->
  amap_get (s_apply_recs m L) k = if existsb (fun r => bytes_eqb k (r_key r)) L then amap_get M k else amap_get m k.
Proof.
  induction L as [|r L IH]; intros m k Hty H1; [reflexivity|]. cbn [s_apply_recs fold_left existsb].
  change (fold_left rec_apply L (rec_apply m r)) with (s_apply_recs (rec_apply m r) L).
  rewrite (IH _ k (Forall_inv_tail Hty) (fun r0 H => H1 r0 (or_intror H))).
  destruct (existsb _ L); [rewrite orb_true_r; reflexivity|]. rewrite orb_false_r.
  unfold rec_apply. rewrite (Forall_inv Hty), amap_get_put. destruct (bytes_eqb k (r_key r)) eqn:E; [|reflexivity].
  apply bytes_eqb_eq in E. subst k. symmetry. apply H1. left. reflexivity.
Qed.

Lemma puts_denote L M : sorted M -> Forall (fun r => (r_type r =? rt_Deleted) = false) L ->
  (forall r, In r L -> amap_get M (r_key r) = Some (r_value r)) ->
  (forall k v, amap_get M k = Some v -> exists r, In r L /\ r_key r = k) ->
  s_apply_recs [] L = M.
Proof.
  intros HsM Hty H1 H2. apply sorted_ext; [apply s_apply_recs_sorted; constructor|exact HsM|].
  intros k. rewrite (apply_puts_get M L [] k Hty H1). cbn [amap_get].
  destruct (existsb _ L) eqn:E; [reflexivity|]. destruct (amap_get M k) as [v|] eqn:Ek; [|reflexivity].
  destruct (H2 k v Ek) as (r & Hin & <-). rewrite (proj2 (existsb_exists _ L)) in E; [discriminate|].
  exists r. split; [exact Hin|apply bytes_eqb_refl].
Qed.

Definition located (d : db) (fid : N) (rs : list (record * pos)) : Prop :=
  Forall (fun rp => forall q, p_fid q = fid -> p_off q = p_off (snd rp) -> p_bid q = p_bid (snd rp) ->
                              rec_at d q = Some (fst rp)) rs.

Lemma located_extends d d' fid rs : extends d d' -> located d fid rs -> located d' fid rs.
Proof. intros He. apply Forall_impl. intros rp H q a b c. exact (He _ _ (H q a b c)). Qed.

Lemma located_frecs d fid : InvF d -> InvP d -> located d fid (frecs d fid).
Proof.
  intros [_ Hold] [_ Hpo]. unfold frecs. destruct (older_get (d_older d) fid) as [f|] eqn:Hg; [|constructor].
  apply Forall_forall. intros [r p] Hin q Q1 Q2 Q3. cbn [fst snd] in *.
  destruct (Hold _ _ Hg) as [_ Hlt]. destruct (Hpo _ _ Hg r p Hin) as [_ Hlk].
  unfold rec_at, file_of. rewrite Q1. destruct (fid =? d_active_id d) eqn:E; [lia|]. rewrite Hg, Q2, Q3. exact Hlk.
Qed.

(* a record the scan finds live is the record its key's index entry points to: it is no tombstone *)
Lemma live_rec d fid r p :
  Inv d -> (forall q, p_fid q = fid -> p_off q = p_off p -> p_bid q = p_bid p -> rec_at d q = Some r) ->
  live_in (d_index d) fid (r, p) = true ->
  exists q, idx_get (d_index d) (r_key r) = Some q /\ rec_at d q = Some r /\ (r_type r =? rt_Deleted) = false.
Proof.
  intros [_ [_ Hres]] Hloc Hlive. apply live_in_true in Hlive. destruct Hlive as (q & Eq & Q1 & Q2 & Q3).
  destruct (Hres _ _ (amap_get_in _ _ _ Eq)) as (r' & Hr' & _ & Hty).
  rewrite (Hloc q Q1 Q2 Q3) in Hr'. injection Hr' as <-. exists q. auto.
Qed.

Lemma live_frec d fid r p : Inv d -> InvP d -> In (r, p) (frecs d fid) -> live_in (d_index d) fid (r, p) = true ->
  exists q, idx_get (d_index d) (r_key r) = Some q /\ rec_at d q = Some r /\ (r_type r =? rt_Deleted) = false.
Proof.
  intros HI HP Hin. apply (live_rec d fid r p HI).
  exact (proj1 (Forall_forall _ _) (located_frecs d fid (proj1 HI) HP) _ Hin).
Qed.

Lemma live_typed_holds d : Inv d -> InvP d -> live_typed d.
Proof. intros HI HP fid [r p] Hin Hlive. destruct (live_frec d fid r p HI HP Hin Hlive) as (q & _ & _ & H). exact H. Qed.

Theorem merged_log_denotes d M order :
  Inv d -> InvP d -> R d M -> lf_recs (d_active d) = [] ->
  (forall fid f, older_get (d_older d) fid = Some f -> In fid order) ->
  live_typed d /\ s_apply_recs [] (merged_log d order) = M /\
  Forall (fun r => r_batch r = 0) (merged_log d order).
Proof.
  intros HI HP HR Hempty Hall.
  assert (Hsel : forall r0, In r0 (merged_log d order) -> r_batch r0 = 0 /\
            exists r q, r0 = plainify r /\ idx_get (d_index d) (r_key r) = Some q /\ rec_at d q = Some r /\
                        (r_type r =? rt_Deleted) = false).
  { intros r0 Hin. apply in_merged_log in Hin. destruct Hin as (fid & [r p] & _ & Hrp & Hlive & ->).
    destruct (live_frec d fid r p HI HP Hrp Hlive) as (q & Hq). split; [reflexivity|]. exists r, q. auto. }
  split; [exact (live_typed_holds d HI HP)|]. split.
  - apply puts_denote.
    + eapply R_sorted; eassumption.
    + apply Forall_forall. intros r0 Hin. destruct (Hsel r0 Hin) as (_ & r & q & -> & _ & _ & H). exact H.
    + intros r0 Hin. destruct (Hsel r0 Hin) as (_ & r & q & -> & Hq & Hrq & Hty0). cbn [plainify r_key r_value].
      pose proof (R_get d M (r_key r) HR) as HG. rewrite Hq in HG. destruct HG as (v & Hv & Hm).
      unfold val_at in Hv. rewrite Hrq, Hty0 in Hv. injection Hv as <-. exact Hm.
    + (* a key of M has an index entry; the record it points to sits in an older file, where the scan finds it live *)
      intros k v Hm. pose proof (R_get d M k HR) as HG.
      destruct (idx_get (d_index d) k) as [q|] eqn:Eq; [|rewrite HG in Hm; discriminate].
      destruct HI as [_ [_ Hres]]. destruct (Hres _ _ (amap_get_in _ _ _ Eq)) as (r' & Hr' & Hk & _).
      unfold rec_at, file_of in Hr'. destruct (p_fid q =? d_active_id d) eqn:Ea; [rewrite Hempty in Hr'; discriminate|].
      destruct (older_get (d_older d) (p_fid q)) as [f|] eqn:Hg; [|discriminate].
      destruct (lookup_in _ _ _ _ Hr') as (p & Hin & Hb & Ho).
      exists (plainify r'). split; [|exact Hk]. apply in_merged_log. exists (p_fid q), (r', p).
      split; [exact (Hall _ _ Hg)|]. split; [rewrite (frecs_some d _ f Hg); exact Hin|]. split; [|reflexivity].
      apply live_in_true. exists q. rewrite Hk. auto.
  - apply Forall_forall. intros r0 Hin. exact (proj1 (Hsel r0 Hin)).
Qed.

(* ---- Merge as a whole ---------------------------------------------------------------------------------- *)
(* what a successful Merge leaves in the merge directory, relative to the mapping M of the database;
   n is the number of rewritten files (their ids are 0 .. n-1, below the marker id mid) *)
Definition merge_dir_ok (md : mdir) (mid : N) (M : smap) : Prop :=
  exists n h, m_marker md = Some mid /\ m_hint md = Some h /\ 0 < n /\ n <= mid /\
    merged_ok (m_files md) n /\
    hf_recs h = hint_of (recs_of (m_files md)) /\
    Forall (fun rp => plain_live (fst rp)) (recs_of (m_files md)) /\
    s_apply_recs [] (files_log (m_files md)) = M.

Lemma MF_files m : MF m ->
  ids_below (ms_files m) (ms_active_id m + 1) /\
  Forall (fun x => wf_lfile (snd x) /\ pos_ok (fst x) (snd x)) (ms_files m) /\
  (forall x, older_get (ms_files m) x <> None <-> x < ms_active_id m + 1) /\
  recs_of (ms_files m) = ms_recs m.
Proof.
  intros (Hwf & Hpo & Hbel & Hall & Hpres). unfold ms_files. rewrite (older_set_append _ _ _ Hbel).
  split; [apply ids_below_app; exact Hbel|]. split; [apply Forall_app; auto|].
  split; [|rewrite recs_of_app, recs_of_single; reflexivity].
  intros x. rewrite (older_get_app_last _ _ _ _ Hbel). destruct (x =? ms_active_id m) eqn:E; [split; [lia|discriminate]|].
  split; [|intros Hx; apply Hpres; lia].
  intros Hne. destruct (N.lt_ge_cases x (ms_active_id m)) as [Hx|Hx]; [lia|].
  destruct Hne. apply older_get_none_below. exact (ids_below_weaken _ _ _ Hx Hbel).
Qed.

Lemma ms_finish_ok m mid M :
  MF m -> MH m -> ms_active_id m < mid -> s_apply_recs [] (map fst (ms_recs m)) = M ->
  merge_dir_ok (ms_finish m mid) mid M.
Proof.
  intros HF [Hh Hpl] Hlt HM. destruct (MF_files m HF) as (Hb & Hall & Hpres & Hrecs).
  assert (Hrecs' : recs_of (map_files closed (ms_files m)) = ms_recs m) by (rewrite recs_of_map_files; [exact Hrecs|reflexivity]).
  exists (ms_active_id m + 1), (hf_closed (ms_hint m)). cbn [ms_finish m_marker m_hint m_files]. rewrite files_log_recs, Hrecs'.
  split; [reflexivity|]. split; [reflexivity|]. split; [lia|]. split; [lia|].
  split; [|split; [exact Hh|split; [exact Hpl|exact HM]]].
  split; [exact (ids_below_asc _ _ (ids_below_ids _ _ _ (map_files_ids closed (ms_files m)) Hb))|]. split.
  - apply Forall_forall. intros [id f'] Hin. apply in_map_files in Hin. destruct Hin as (f & Hin & ->).
    rewrite Forall_forall in Hall. destruct (Hall _ Hin) as [Hwf Hpo]. split; [exact Hwf|]. split; [exact Hpo|reflexivity].
  - intros x. rewrite older_get_map_files, <- Hpres. destruct (older_get (ms_files m) x); cbn [option_map]; split; congruence.
Qed.

(* the scan order observed from the implementation covers every data file of the database *)
Definition order_ok (d : db) (order : list N) : Prop :=
  forall fid, fid = d_active_id d \/ older_get (d_older d) fid <> None -> In fid order.

Lemma merge_rotate d M d1 ev1 : LogInv d M -> db_rotate d = (d1, ev1) ->
  LogInv d1 M /\ d_active_id d1 = d_active_id d + 1 /\ lf_recs (d_active d1) = [] /\
  forall order, order_ok d order -> forall fid f, older_get (d_older d1) fid = Some f -> In fid order.
Proof.
  intros [HLO Ht] Hrot. destruct (db_rotate_LogOK d M d1 ev1 HLO Hrot) as (HLO1 & Hlog & _).
  split; [split; [exact HLO1|rewrite Hlog; exact Ht]|].
  rewrite (db_rotate_inv _ _ _ Hrot). cbn [rotated d_active_id d_active d_older].
  split; [reflexivity|]. split; [exact (proj1 (opened_fields _ lf_empty))|].
  intros order Hord fid f Hg. apply Hord. rewrite older_get_set in Hg.
  destruct (fid =? d_active_id d) eqn:E; [left; lia|right; rewrite Hg; discriminate].
Qed.

Theorem db_merge_out d k M order d' k' e evs :
  LogInv d M -> (e = None -> order_ok d order) -> db_merge d k order = (d', k', e, evs) ->
  LogInv d' M /\ k_data k' = k_data k /\
  d_active_id d' = d_active_id d + 1 /\ lf_recs (d_active d') = [] /\
  match e with
  | None => exists md, k_merge k' = Some md /\ merge_dir_ok md (d_active_id d') M
  | Some _ => exists md, k_merge k' = Some md /\ m_marker md = None
  end.
Proof.
  intros HL Hord Hm. split; [exact (db_merge_log _ _ _ _ _ _ _ _ HL Hm)|].
  destruct (db_merge_shape _ _ _ _ _ _ _ Hm) as (d1 & ev1 & d2 & res & ev5 & Hrot & Hmf & Hkd & Hres).
  destruct (merge_rotate d M d1 ev1 HL Hrot) as (HL1 & Haid1 & Hemp1 & Hcov).
  split; [exact Hkd|].
  destruct (ms_init_ok (io_of d)) as (HF0 & HH0 & Hrecs0).
  assert (Hlt0 : ms_active_id (ms_init (io_of d)) < d_active_id d1) by (cbn [ms_init ms_active_id]; lia).
  assert (Hout : forall m, res = MsOk m -> MF m /\ MH m /\ ms_active_id m < d_active_id d1 /\
            map fst (ms_recs m) = map fst (ms_recs (ms_init (io_of d))) ++ merged_log d1 order).
  { intros m ->. apply (ms_emits_ok _ _ _ _ _ (merge_files_emits _ _ _ _ _ _ _ _ Hmf) HF0 HH0 Hlt0).
    apply Forall_forall. intros r0 Hin. apply in_merged_log in Hin. destruct Hin as (fid & rp & _ & Hin & Hlive & ->).
    split; [reflexivity|]. exact (live_typed_holds d1 (LogInv_Inv _ _ HL1) (LogInv_InvP _ _ HL1) fid rp Hin Hlive). }
  (* the scan and the final Sync leave the active file as the rotation made it *)
  destruct (merge_files_touched_by _ _ _ _ _ _ _ _ Hmf) as (a2 & o2 & (Sf2 & _) & _ & ->). clear Hmf.
  destruct res as [m|er m].
  - destruct Hres as ((evS & Hsy) & -> & Hkm). rewrite db_sync_eq in Hsy. injection Hsy as <- _.
    cbn [set_active d_active_id d_active synced lf_recs].
    split; [exact Haid1|]. split; [rewrite Sf2; exact Hemp1|]. exists (ms_finish m (d_active_id d1)). split; [exact Hkm|].
    destruct (Hout m eq_refl) as (HFm & HHm & Hlt & Hrecs). apply (ms_finish_ok m _ M HFm HHm Hlt). rewrite Hrecs, Hrecs0.
    exact (proj1 (proj2 (merged_log_denotes d1 M order (LogInv_Inv _ _ HL1) (LogInv_InvP _ _ HL1) (LogInv_R _ _ HL1) Hemp1
                           (Hcov order (Hord eq_refl))))).
  - destruct Hres as (-> & -> & Hkm). cbn [d_active_id d_active].
    split; [exact Haid1|]. split; [rewrite Sf2; exact Hemp1|]. exists (ms_abandoned m). split; [exact Hkm|reflexivity].
Qed.

(* ---- the hint file names the records of the rewritten files (C18) ------------------------------------------ *)
Theorem hint_entries_faithful md mid M h :
  merge_dir_ok md mid M -> m_hint md = Some h ->
  map fst (hf_recs h) = map r_key (files_log (m_files md)) /\
  forall key p, In (key, p) (hf_recs h) ->
    exists f r, older_get (m_files md) (p_fid p) = Some f /\
                lf_lookup (lf_recs f) (p_bid p) (p_off p) = Some r /\ r_key r = key /\ plain_live r.
Proof.
  intros (n & h' & _ & Hh' & _ & _ & (Hasc & Hok & _) & Hhint & Hpl & _) Hh. rewrite Hh in Hh'. injection Hh' as <-.
  split.
  - rewrite Hhint, files_log_recs. unfold hint_of. rewrite !map_map. reflexivity.
  - intros key p Hin. rewrite Hhint in Hin. unfold hint_of in Hin. apply in_map_iff in Hin.
    destruct Hin as ([r p0] & Heq & Hin). cbn [fst snd] in Heq. injection Heq as <- <-.
    destruct (recs_of_in _ _ _ Hin) as (id & f & Hf & Hrp).
    rewrite Forall_forall in Hok. destruct (Hok _ Hf) as (_ & Hpo & _). cbn [fst snd] in Hpo.
    destruct (Hpo r p0 Hrp) as [Hfid Hlk].
    exists f, r. split; [rewrite Hfid; apply asc_get_in; assumption|]. split; [exact Hlk|]. split; [reflexivity|].
    rewrite Forall_forall in Hpl. exact (Hpl _ Hin).
Qed.
