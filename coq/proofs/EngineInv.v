(* EngineInv.v — the engine invariant Inv, the abstract map R d m ("key -> value of the record its index entry
   points to"), and the effect on both of rotation, append, the index update, Put, Delete, Get, ListKeys,
   Stat.KeyNum, Fold (whole and stopped after n items) and Sync. *)
From Coq Require Import ZArith Lia ZifyN ZifyNat ZifyBool Sorting.Sorted.
From KV Require Import Bytes GenConsts Chunk Record Engine Script BytesLemmas AMapLemmas ListLemmas EngineFiles EngineOps.
Open Scope N_scope.

Definition file_of (d : db) (fid : N) : option lfile :=
  if fid =? d_active_id d then Some (d_active d) else older_get (d_older d) fid.
Definition rec_at (d : db) (p : pos) : option record :=
  match file_of d (p_fid p) with
  | Some f => lf_lookup (lf_recs f) (p_bid p) (p_off p)
  | None => None
  end.
(* the value an index entry stands for: the value of the record it points to; an entry never points to a tombstone,
   so a tombstone there stands for no value *)
Definition val_at (d : db) (p : pos) : option bytes :=
  match rec_at d p with
  | Some r => if r_type r =? rt_Deleted then None else Some (r_value r)
  | None => None
  end.

Definition InvF (d : db) : Prop :=
  wf_lfile (d_active d) /\
  (forall id f, older_get (d_older d) id = Some f -> wf_lfile f /\ id < d_active_id d).
Definition InvI (d : db) : Prop :=
  sorted (d_index d) /\
  (forall k p, In (k, p) (d_index d) ->
     exists r, rec_at d p = Some r /\ r_key r = k /\ (r_type r =? rt_Deleted) = false).
Definition Inv (d : db) : Prop := InvF d /\ InvI d.

(* d' has every record d has, at the same positions *)
Definition extends (d d' : db) : Prop := forall q x, rec_at d q = Some x -> rec_at d' q = Some x.
Lemma extends_refl d : extends d d. Proof. intros q x H. exact H. Qed.
Lemma extends_trans a b c : extends a b -> extends b c -> extends a c.
Proof. intros H1 H2 q x H. apply H2, H1, H. Qed.

Lemma rec_at_set_active d a q :
  rec_at (set_active d (d_active_id d) a) q =
    if p_fid q =? d_active_id d then lf_lookup (lf_recs a) (p_bid q) (p_off q) else rec_at d q.
Proof. unfold rec_at, file_of. cbn [set_active d_active d_older d_active_id]. destruct (p_fid q =? d_active_id d); reflexivity. Qed.

Lemma InvF_set_active d a : InvF d -> wf_lfile a -> InvF (set_active d (d_active_id d) a).
Proof. intros [_ Hold] Ha. split; [exact Ha|exact Hold]. Qed.
Lemma rec_at_touched {io} d d' : touched_by io d d' -> forall q, rec_at d' q = rec_at d q.
Proof.
  intros (a & o & (Ha & _) & Ho & ->) q. unfold rec_at, file_of. cbn [d_active_id d_active d_older].
  destruct (p_fid q =? d_active_id d); [rewrite Ha; reflexivity|].
  pose proof (files_touched_get _ _ _ Ho (p_fid q)) as Hg.
  destruct (older_get (d_older d) (p_fid q)), (older_get o (p_fid q)); try contradiction; [|reflexivity].
  rewrite (proj1 Hg). reflexivity.
Qed.
Lemma InvF_touched {io} d d' : touched_by io d d' -> InvF d -> InvF d'.
Proof.
  intros (a & o & Ha & Ho & ->) [Hact Hold]. split; cbn [d_active d_older d_active_id].
  - exact (remapped_wf _ _ _ Ha Hact).
  - intros id f' Hg'. pose proof (files_touched_get _ _ _ Ho id) as Hg. rewrite Hg' in Hg.
    destruct (older_get (d_older d) id) as [f|] eqn:E; [|contradiction].
    destruct (Hold id f E) as [Hwf Hlt]. split; [exact (remapped_wf _ _ _ Hg Hwf)|exact Hlt].
Qed.
Lemma rec_at_index_only d d' : index_only d d' -> forall q, rec_at d' q = rec_at d q.
Proof. intros (ix & t & rc & ->) q. reflexivity. Qed.
Lemma InvF_index_only d d' : index_only d d' -> InvF d -> InvF d'.
Proof. intros (ix & t & rc & ->) H. exact H. Qed.

Lemma db_rotate_spec d d' evs :
  InvF d -> db_rotate d = (d', evs) ->
  InvF d' /\ (forall p, rec_at d' p = rec_at d p) /\ d_index d' = d_index d /\ d_cfg d' = d_cfg d.
Proof.
  intros [Hact Hold] Hrot. apply db_rotate_inv in Hrot. subst d'.
  destruct (opened_fields (io_of d) lf_empty) as (Hn1 & _). cbn [lf_recs lf_empty] in Hn1.
  split; [|split; [|split; reflexivity]].
  - split; cbn [rotated d_active d_older d_active_id].
    + intros r p Hin. rewrite Hn1 in Hin. destruct Hin.
    + intros id f Hget. rewrite older_get_set in Hget. destruct (id =? d_active_id d) eqn:E.
      * injection Hget as <-. split; [exact (wf_lfile_same _ (synced (d_active d)) eq_refl eq_refl Hact)|lia].
      * destruct (Hold id f Hget) as [H1 H2]. split; [exact H1|lia].
  - (* the new file is empty, and no file had its id *)
    intros p. unfold rec_at, file_of. cbn [rotated d_active d_older d_active_id].
    destruct (p_fid p =? d_active_id d + 1) eqn:E1.
    + rewrite Hn1. cbn [lf_lookup]. destruct (p_fid p =? d_active_id d) eqn:E2; [lia|].
      destruct (older_get (d_older d) (p_fid p)) as [f|] eqn:E3; [|reflexivity].
      destruct (Hold _ _ E3) as [_ H]. lia.
    + rewrite older_get_set. destruct (p_fid p =? d_active_id d); reflexivity.
Qed.

Lemma db_append_spec d r d' p evs :
  InvF d -> db_append d r = (d', p, evs) ->
  InvF d' /\ extends d d' /\ rec_at d' p = Some r /\ d_index d' = d_index d /\ d_cfg d' = d_cfg d.
Proof.
  intros HF Happ. destruct (db_append_shape _ _ _ _ _ Happ) as (d1 & ev1 & a & ev2 & Hrot & Hla & ->).
  assert (H1 : InvF d1 /\ (forall q, rec_at d1 q = rec_at d q) /\ d_index d1 = d_index d /\ d_cfg d1 = d_cfg d).
  { apply (maybe_rotate_ind (fun x => InvF x /\ (forall q, rec_at x q = rec_at d q) /\ d_index x = d_index d /\ d_cfg x = d_cfg d)
             _ _ _ _ Hrot); [auto|]. intros d2 e Hr. exact (db_rotate_spec d d2 e HF Hr). }
  destruct H1 as (HF1 & Hsame & Hix1 & Hcfg1).
  destruct (lf_append_spec _ _ _ _ _ _ _ _ (proj1 HF1) Hla) as (Hwfa & Hrecs & Hfid & Hnone & _).
  cbv zeta. set (s := sync_due _ _). destruct (if_synced_fields s a) as (Ha'1 & Ha'2 & _).
  (* both branches of the sync policy leave the same records *)
  assert (Hrat : forall q, rec_at (mkDb (d_cfg d1) (d_active_id d1) (if s then synced a else a) (d_older d1) (d_index d1)
                                        (if s then 0 else d_bytes_write d1 + p_size p) (d_total d1 + p_size p) (d_reclaim d1)) q
                 = if p_fid q =? d_active_id d1 then lf_lookup (lf_recs a) (p_bid q) (p_off q) else rec_at d1 q).
  { intros q. unfold rec_at, file_of. cbn [d_active d_older d_active_id].
    destruct (p_fid q =? d_active_id d1); [rewrite Ha'1|]; reflexivity. }
  cbn [d_index d_cfg]. split; [|split; [|split; [|split; assumption]]].
  - split; cbn [d_active d_older d_active_id]; [exact (wf_lfile_same _ _ Ha'1 Ha'2 Hwfa)|exact (proj2 HF1)].
  - intros q x Hq. rewrite Hrat. rewrite <- Hsame in Hq.
    destruct (p_fid q =? d_active_id d1) eqn:E; [|exact Hq].
    unfold rec_at, file_of in Hq. rewrite E in Hq. rewrite Hrecs. apply lookup_after_append. exact Hq.
  - rewrite Hrat. rewrite Hfid, N.eqb_refl, Hrecs. apply lookup_new. exact Hnone.
Qed.

(* R d m: the database d denotes the map m (same keys in the same order, each entry resolving to its value) *)
Definition R (d : db) (m : amap bytes) : Prop :=
  amap_rel (fun p v => val_at d p = Some v) (d_index d) m.

Lemma val_at_extends d d' p v : extends d d' -> val_at d p = Some v -> val_at d' p = Some v.
Proof. intros He H. unfold val_at in *. destruct (rec_at d p) as [r|] eqn:E; [|discriminate].
  rewrite (He _ _ E). exact H. Qed.

Lemma R_extends d d' m : extends d d' -> d_index d' = d_index d -> R d m -> R d' m.
Proof. intros He Hix. unfold R. rewrite Hix. apply amap_rel_impl. intros p v. exact (val_at_extends d d' p v He). Qed.

Lemma Inv_extends d d' : Inv d -> InvF d' -> extends d d' -> d_index d' = d_index d -> Inv d'.
Proof.
  intros [_ [Hs Hr]] HF He Hix. split; [exact HF|]. unfold InvI. rewrite Hix. split; [exact Hs|].
  intros k p Hin. destruct (Hr k p Hin) as (r & Hrp & Hk). exists r. split; [exact (He _ _ Hrp)|exact Hk].
Qed.

Lemma Inv_R_index d m r p r' :
  Inv d -> R d m -> rec_at d p = Some r' -> r_key r' = r_key r -> r_value r' = r_value r -> r_type r' = r_type r ->
  Inv (idx_upd d r p) /\ R (idx_upd d r p) (rec_apply m r).
Proof.
  intros [HF [Hsorted Hres]] HR Hp Hk Hv Hty. pose proof (idx_upd_index_only d r p) as Hio.
  pose proof (rec_at_index_only _ _ Hio) as Hrec.
  assert (HR' : amap_rel (fun q v => val_at (idx_upd d r p) q = Some v) (d_index d) m).
  { revert HR. apply amap_rel_impl. intros q x Hq. unfold val_at in *. rewrite Hrec. exact Hq. }
  unfold R, Inv, InvI, rec_apply. rewrite idx_upd_index.
  split; [split; [exact (InvF_index_only _ _ Hio HF)|split]|].
  - destruct (r_type r =? rt_Deleted); [apply amap_del_sorted|apply amap_put_sorted]; exact Hsorted.
  - intros k q Hin. rewrite Hrec. destruct (r_type r =? rt_Deleted) eqn:Ety.
    + apply in_amap_del in Hin. apply Hres. exact Hin.
    + destruct (in_amap_put _ _ _ _ Hin) as [Heq|Hold]; [|apply Hres; exact Hold].
      injection Heq as -> ->. exists r'. rewrite Hty. auto.
  - destruct (r_type r =? rt_Deleted) eqn:Ety; [apply amap_rel_del; exact HR'|].
    apply amap_rel_put; [exact HR'|]. unfold val_at. rewrite Hrec, Hp, Hty, Ety, Hv. reflexivity.
Qed.

Lemma append_index_spec d m r d1 p evs :
  Inv d -> R d m -> db_append d r = (d1, p, evs) ->
  Inv (idx_upd d1 r p) /\ R (idx_upd d1 r p) (rec_apply m r).
Proof.
  intros HI HR Happ. destruct (db_append_spec _ _ _ _ _ (proj1 HI) Happ) as (HF1 & Hext & Hnew & Hix & _).
  exact (Inv_R_index d1 m r p r (Inv_extends d d1 HI HF1 Hext Hix) (R_extends d d1 m Hext Hix HR) Hnew eq_refl eq_refl eq_refl).
Qed.

Theorem db_put_spec d m k v d' e evs :
  Inv d -> R d m -> db_put d k v = (d', e, evs) ->
  Inv d' /\ e = snd (s_put m k v) /\ R d' (fst (s_put m k v)).
Proof.
  intros HI HR Hput. unfold s_put.
  destruct (db_put_cases _ _ _ _ _ _ Hput) as [(-> & -> & -> & _)|(-> & -> & d1 & p & Happ & ->)]; [auto|].
  destruct (append_index_spec _ _ _ _ _ _ HI HR Happ) as (A & B). auto.
Qed.

Definition same_recs (d d' : db) : Prop :=
  (forall q, rec_at d' q = rec_at d q) /\ d_index d' = d_index d.
Lemma same_recs_refl d : same_recs d d. Proof. split; auto. Qed.
Lemma same_recs_trans a b c : same_recs a b -> same_recs b c -> same_recs a c.
Proof. intros [H1 H2] [H3 H4]. split; [intros q; rewrite H3; apply H1|congruence]. Qed.
Lemma Inv_same d d' : Inv d -> InvF d' -> same_recs d d' -> Inv d'.
Proof. intros [_ [Hs Hr]] HF [Hrec Hix]. split; [exact HF|]. split; rewrite Hix; [exact Hs|].
  intros k p Hin. rewrite Hrec. apply Hr. exact Hin. Qed.
Lemma R_same d d' m : same_recs d d' -> R d m -> R d' m.
Proof. intros [Hrec Hix] HR. unfold R in *. rewrite Hix. eapply amap_rel_impl; [|exact HR].
  intros p v H. unfold val_at in *. rewrite Hrec. exact H. Qed.

Lemma same_recs_touched {io} d d' : touched_by io d d' -> same_recs d d'.
Proof. intros H. split; [exact (rec_at_touched d d' H)|]. destruct H as (a & o & _ & _ & ->). reflexivity. Qed.
Lemma Inv_touched {io} d d' : touched_by io d d' -> Inv d -> Inv d'.
Proof. intros H HI. exact (Inv_same d d' HI (InvF_touched d d' H (proj1 HI)) (same_recs_touched d d' H)). Qed.
Lemma R_touched {io} d d' m : touched_by io d d' -> R d m -> R d' m.
Proof. intros H. exact (R_same d d' m (same_recs_touched d d' H)). Qed.

Lemma R_get d m k : R d m ->
  match idx_get (d_index d) k with
  | Some p => exists v, val_at d p = Some v /\ amap_get m k = Some v
  | None => amap_get m k = None
  end.
Proof.
  intros HR. pose proof (amap_rel_get _ _ _ k HR) as H. unfold idx_get.
  destruct (amap_get (d_index d) k) as [p|]; destruct (amap_get m k) as [v|]; try contradiction; eauto.
Qed.

Lemma db_read_value d p r : rec_at d p = Some r -> exists d' evs, db_read d p = (d', inl (r_value r), evs).
Proof.
  unfold rec_at, file_of, db_read. destruct (p_fid p =? d_active_id d).
  - pose proof (h_read_remapped (io_of d) (FData (d_active_id d)) (d_active d) (fst (read_span (d_active d) p))
                  (snd (read_span (d_active d) p))) as [Hr _].
    destruct (h_read _ _ _ _ _) as [a ev]. cbn [fst] in Hr. rewrite Hr. intros ->. eauto.
  - destruct (older_get (d_older d) (p_fid p)) as [f|]; [|discriminate].
    pose proof (h_read_remapped (io_of d) (FData (p_fid p)) f (fst (read_span f p)) (snd (read_span f p))) as [Hr _].
    destruct (h_read _ _ _ _ _) as [f' ev]. cbn [fst] in Hr. rewrite Hr. intros ->. eauto.
Qed.
Lemma db_read_spec d p v :
  InvF d -> val_at d p = Some v ->
  exists d' evs, db_read d p = (d', inl v, evs) /\ InvF d' /\ same_recs d d'.
Proof.
  intros HF Hv. unfold val_at in Hv. destruct (rec_at d p) as [r|] eqn:E; [|discriminate].
  destruct (r_type r =? rt_Deleted); [discriminate|]. injection Hv as <-.
  destruct (db_read_value d p r E) as (d' & evs & H). exists d', evs. pose proof (db_read_touched _ _ _ _ _ H) as Ht.
  split; [exact H|]. split; [exact (InvF_touched d d' Ht HF)|exact (same_recs_touched d d' Ht)].
Qed.

Theorem db_get_spec d m k :
  Inv d -> R d m ->
  exists d' evs, db_get d k = (d', s_get m k, evs) /\ Inv d' /\ R d' m.
Proof.
  intros HI HR. unfold db_get, s_get. destruct (len k =? 0).
  - eexists _, _. split; [reflexivity|auto].
  - pose proof (R_get d m k HR) as Hg.
    destruct (idx_get (d_index d) k) as [p|].
    + destruct Hg as (v & Hv & Hm). rewrite Hm.
      destruct (db_read_spec d p v (proj1 HI) Hv) as (d' & evs & Hrd & HF' & Hsame).
      exists d', evs. split; [exact Hrd|]. split; [eapply Inv_same; eassumption|eapply R_same; eassumption].
    + rewrite Hg. eexists _, _. split; [reflexivity|auto].
Qed.

Theorem db_delete_spec d m k d' e evs :
  Inv d -> R d m -> db_delete d k = (d', e, evs) ->
  Inv d' /\ e = snd (s_del m k) /\ R d' (fst (s_del m k)).
Proof.
  intros HI HR Hdel. unfold s_del. pose proof (R_get d m k HR) as Hg.
  destruct (db_delete_cases _ _ _ _ _ Hdel) as [(-> & -> & -> & _)|[(-> & Eg & -> & -> & _)|(-> & Eg & d1 & p & Happ & -> & ->)]];
    cbn [fst snd].
  - auto.
  - rewrite Eg in Hg. rewrite (amap_del_absent m k Hg). auto.
  - destruct (append_index_spec _ _ _ _ _ _ HI HR Happ) as (A & B).
    split; [exact A|]. split; [|exact B].
    (* the entry is there, so its removal reports it *)
    destruct (db_append_spec _ _ _ _ _ (proj1 HI) Happ) as (_ & _ & _ & Hix & _).
    pose proof (amap_del_old (d_index d) k) as Ho. unfold idx_del, idx_get in *. rewrite Hix.
    destruct (amap_del (d_index d) k) as [ix old]. cbn [snd] in *. rewrite Ho.
    destruct (amap_get (d_index d) k); [reflexivity|contradiction].
Qed.

Lemma db_list_keys_spec d m : R d m -> db_list_keys d = map fst m.
Proof. intros HR. unfold db_list_keys. apply (amap_rel_keys _ _ _ HR). Qed.
Lemma db_keynum_spec d m : R d m -> len (d_index d) = len m.
Proof. intros HR. apply (amap_rel_len _ _ _ HR). Qed.

Lemma db_fold_aux_spec : forall ix d m,
  InvF d -> amap_rel (fun p v => val_at d p = Some v) ix m ->
  exists d' evs, db_fold_aux d ix = (d', inl m, evs) /\ InvF d' /\ same_recs d d'.
Proof.
  induction ix as [|[k p] ix IH]; intros d m HF HR; inversion HR as [|x y ix' m' [Hk Hv] Hrest]; subst.
  - eexists _, _. split; [reflexivity|]. split; [exact HF|apply same_recs_refl].
  - destruct y as [k' v]. cbn [fst snd] in *. subst k'. cbn [db_fold_aux].
    destruct (db_read_spec d p v HF Hv) as (d1 & ev1 & Hrd & HF1 & Hs1). rewrite Hrd.
    assert (HR1 : amap_rel (fun p v => val_at d1 p = Some v) ix m').
    { eapply amap_rel_impl; [|exact Hrest]. intros q x Hq. unfold val_at in *. rewrite (proj1 Hs1). exact Hq. }
    destruct (IH d1 m' HF1 HR1) as (d2 & ev2 & Hf & HF2 & Hs2). rewrite Hf.
    eexists _, _. split; [reflexivity|]. split; [exact HF2|eapply same_recs_trans; eassumption].
Qed.
Theorem db_fold_spec d m :
  Inv d -> R d m ->
  exists d' evs, db_fold d = (d', inl m, evs) /\ Inv d' /\ R d' m.
Proof.
  intros HI HR. destruct (db_fold_aux_spec (d_index d) d m (proj1 HI) HR) as (d' & evs & Hf & HF' & Hs).
  exists d', evs. split; [exact Hf|]. split; [eapply Inv_same; eassumption|eapply R_same; eassumption].
Qed.

(* Fold stopped by its callback after n items: exactly the first n pairs of the mapping, in key order *)
Theorem db_fold_n_spec d m n :
  Inv d -> R d m ->
  exists d' evs, db_fold_n d n = (d', inl (firstn n m), evs) /\ Inv d' /\ R d' m.
Proof.
  intros HI HR. unfold db_fold_n.
  assert (HRn : amap_rel (fun p v => val_at d p = Some v) (firstn n (d_index d)) (firstn n m)).
  { unfold R, amap_rel in *. apply Forall2_firstn. exact HR. }
  destruct (db_fold_aux_spec (firstn n (d_index d)) d (firstn n m) (proj1 HI) HRn) as (d' & evs & Hf & HF' & Hs).
  exists d', evs. split; [exact Hf|]. split; [eapply Inv_same; eassumption|eapply R_same; eassumption].
Qed.

Lemma db_sync_spec d m d' evs : Inv d -> R d m -> db_sync d = (d', evs) ->
  Inv d' /\ R d' m.
Proof.
  intros HI HR Hs. rewrite db_sync_eq in Hs. injection Hs as <- _.
  assert (Hsame : same_recs d (set_active d (d_active_id d) (synced (d_active d)))).
  { split; [|reflexivity]. intros q. rewrite rec_at_set_active. unfold rec_at, file_of.
    destruct (p_fid q =? d_active_id d); reflexivity. }
  pose proof (InvF_set_active d _ (proj1 HI) (wf_lfile_same _ (synced (d_active d)) eq_refl eq_refl (proj1 (proj1 HI)))) as HF'.
  split; [exact (Inv_same _ _ HI HF' Hsame)|exact (R_same _ _ m Hsame HR)].
Qed.
