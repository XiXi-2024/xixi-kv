(* C03 — Crash recovery exposes a prefix of the acknowledged history.
   Crash model: the process dies with the directory as it is; a power failure additionally
   cuts the not-yet-synced tail of a file at ANY byte length.  Rotated files are flushed before
   the engine leaves them (C13), so only the active file can lose a tail.  At record level a
   byte cut keeps exactly the records that end at or before it (lf_crash; the byte-level reader
   reports a torn tail as the end of the file: C11/C12).
   The theorems are about crash images of states at operation boundaries with an arbitrary cut;
   the images at every intermediate I/O event (inside Put, inside Commit, inside rotation) are
   compared between the model (Crash.v: file system as a function of the events) and the real
   engine by the correspondence run of this check. *)
From KV Require Import Bytes Engine Script EngineInv EngineRefine EngineLog EngineRecover EngineCrash.
Open Scope N_scope.

(* For every history (Put/Delete/Get/.../batches/restarts, any configurations), every cut length
   of the active file and any survival of the flushed rotated files, and every configuration of
   the recovering Open: Open succeeds and exposes the mapping produced by the first j operations
   of the history for some j; nothing is lost when nothing is cut (process-only crash). *)
Theorem C03_crash_exposes_prefix :
  forall c ops d k evs0 s' rs evs cuts cutA c',
  Forall op_ok ops ->
  db_open c empty_disk = (OpenOk d k, evs0) ->
  run (d, k) ops = (s', rs, evs) ->
  (forall id f, In (id, f) (d_older (fst s')) -> lf_size f <= cuts id f) ->
  exists d' k' evs' j, db_open c' (crash_disk_of (fst s') cuts cutA) = (OpenOk d' k', evs') /\
    (j <= length ops)%nat /\ R d' (nth j (states [] ops) []) /\ Inv d' /\
    (lf_size (d_active (fst s')) <= cutA -> R d' (final_state [] ops)).
Proof. exact crash_prefix_from_empty. Qed.
Print Assumptions C03_crash_exposes_prefix.

(* the prefix contains every operation whose records survive: if the log after the first part
   [a] of the history lies within the surviving part, the recovered state is a state reached
   after [a] (durable, or acknowledged before a process-only crash, means included) *)
Theorem C03_surviving_operations_are_included :
  forall c a b d k evs0 s1 r1 e1 s' r2 e2 cuts cutA c',
  Forall op_ok a -> Forall op_ok b ->
  db_open c empty_disk = (OpenOk d k, evs0) ->
  run (d, k) a = (s1, r1, e1) -> run s1 b = (s', r2, e2) ->
  (forall id f, In (id, f) (d_older (fst s')) -> lf_size f <= cuts id f) ->
  is_prefix (log (fst s1)) (surviving_log (fst s') cutA) ->
  exists d' k' evs' j, db_open c' (crash_disk_of (fst s') cuts cutA) = (OpenOk d' k', evs') /\
    (j <= length b)%nat /\ R d' (nth j (states (final_state [] a) b) (final_state [] a)).
Proof.
  intros c a b d k evs0 s1 r1 e1 s' r2 e2 cuts cutA c' Hoka Hokb Hopen Hra Hrb Hcuts Hpre.
  destruct (open_empty_log c _ _ _ Hopen) as [HL Hnm].
  destruct (run_log_final _ _ _ _ _ _ _ HL Hnm Hoka Hra) as [HL1 Hnm1]. destruct s1 as [d1 k1]. cbn [fst snd] in *.
  destruct (crash_prefix b d1 k1 _ s' r2 e2 cuts cutA c' HL1 Hnm1 Hokb Hrb Hcuts Hpre) as (d' & k' & evs' & j & A & B & C & _).
  exists d', k', evs', j. auto.
Qed.
Print Assumptions C03_surviving_operations_are_included.

(* the replay core: any prefix of the log denotes the state after a prefix of the operations *)
Theorem C03_log_prefix_is_history_prefix :
  forall ops d k m s' rs evs,
  LogInv d m -> k_merge k = None -> Forall op_ok ops -> run (d, k) ops = (s', rs, evs) ->
  forall P, is_prefix P (log (fst s')) -> is_prefix (log d) P ->
  exists j, (j <= length ops)%nat /\ fst (sreplay [] [] P) = nth j (states m ops) m.
Proof. exact prefix_recovery. Qed.
Print Assumptions C03_log_prefix_is_history_prefix.

Example C03_nonvacuous :
  let ops := [OpPut [1] [2]; OpDel [1]; OpBatch false 4 [BPut [5] [6]]; OpPut [7] [8]] in
  Forall op_ok ops /\ length (states [] ops) = 5%nat.
Proof. split; [repeat constructor; discriminate|reflexivity]. Qed.
