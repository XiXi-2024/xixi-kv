(* C05 — Batch staging semantics: read-your-writes, in-order application, rejection after Commit. *)
From KV Require Import Bytes GenConsts Chunk Record Engine Script AMapLemmas EngineInv EngineBatch EngineRefine.
Open Scope N_scope.

(* A whole batch, on any database state (values in the active file or in any rotated file,
   any configuration), for any sequence of batch Put / Delete / Get (repeated operations on
   one key, overflow of DataFileSize in the middle of the batch): every Batch.Get returns
   what a private copy of the map would return (the batch's own latest staged put, not-found
   for a key it deleted, otherwise the database value wherever it lives), Commit succeeds, and
   the database afterwards is the map obtained by applying the operations one by one in issue
   order. *)
Theorem C05_batch_is_private_copy_installed_at_commit :
  forall d k m sync id bops d' k' rs e evs,
  Inv d -> R d m ->
  step (d, k) (OpBatch sync id bops) = ((d', k'), RBatch rs e, evs) ->
  e = None /\ rs = snd (s_bops m bops) /\ R d' (fst (s_bops m bops)) /\ Inv d'.
Proof.
  intros d k m sync id bops d' k' rs e evs HI HR Hst. cbn [step] in Hst.
  destruct (run_bops d (new_batch sync id) bops) as [[[d1 b1] rs1] ev1] eqn:Hr.
  destruct (batch_commit d1 b1) as [[[d2 b2] e2] ev2] eqn:Hc.
  injection Hst as <- <- <- <- <-.
  destruct (run_bops_spec _ _ _ _ _ _ _ _ HI (BRel_start d m sync id HI HR) Hr) as (HI1 & HB1 & Hrs).
  destruct (batch_commit_view _ _ _ _ _ _ _ HI1 HB1 Hc) as (HI2 & HR2 & He).
  auto.
Qed.
Print Assumptions C05_batch_is_private_copy_installed_at_commit.

(* in-order application: put, delete, put of one key ends with the key present *)
Theorem C05_put_delete_put_ends_present :
  forall m k v1 v2, len k <> 0 ->
  amap_get (fst (s_bops m [BPut k v1; BDel k; BPut k v2])) k = Some v2.
Proof.
  intros m k v1 v2 Hk. cbn [s_bops]. unfold s_put, s_del.
  destruct (len k =? 0) eqn:E; [apply N.eqb_eq in E; contradiction|]. cbn [fst snd].
  apply amap_get_put_same.
Qed.
Print Assumptions C05_put_delete_put_ends_present.

(* a committed batch rejects further use and does not change the database *)
Theorem C05_committed_batch_rejects :
  forall d b k v, b_committed b = true -> len k <> 0 ->
  batch_put d b k v = (d, b, Some EBatchCommitted, []) /\
  batch_delete d b k = (d, b, Some EBatchCommitted, []) /\
  batch_get d b k = (d, inr EBatchCommitted, []) /\
  batch_commit d b = (d, b, Some EBatchCommitted, []).
Proof.
  intros d b k v Hc Hk. unfold batch_put, batch_delete, batch_get, batch_commit. rewrite Hc.
  destruct (len k =? 0) eqn:E; [apply N.eqb_eq in E; contradiction|]. auto.
Qed.
Print Assumptions C05_committed_batch_rejects.

(* Commit marks the batch committed *)
Theorem C05_commit_marks_committed :
  forall d m b d' b' e evs, Inv d -> R d m -> b_committed b = false ->
  batch_commit d b = (d', b', e, evs) -> b_committed b' = true.
Proof. intros d m b d' b' e evs _ _ Hnc Hc.
  destruct (batch_commit_cases _ _ _ _ _ _ Hc) as [(H & _)|(_ & _ & H & _)]; [congruence|exact H]. Qed.
Print Assumptions C05_commit_marks_committed.

Example C05_nonvacuous :
  snd (s_bops [([107], [1])] [BGet [107]; BDel [107]; BGet [107]; BPut [107] [5]; BGet [107]])
  = [RVal (inl [1]); RErr None; RVal (inr EKeyNotFound); RErr None; RVal (inl [5])].
Proof. vm_compute. reflexivity. Qed.
