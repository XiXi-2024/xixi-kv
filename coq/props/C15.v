(* C15 — Caller buffers are never retained or modified; returned values never change.
   Property theorems only.  Model: model/RefHeap.v - the API boundary with explicit memory cells. *)
From Coq Require Import List NArith Bool.
From KV Require Import RefHeap RefHeapProofs.
Import ListNotations.

(* For every sequence of Put / Delete / Get calls by a caller that passes the SAME key buffer and the
   SAME value buffer to every call, overwrites both with arbitrary bytes after every return, and writes
   arbitrary bytes into every slice Get returned: each result and the final contents of the engine are
   exactly those of the value-semantic run in which nothing is ever overwritten - for every choice of
   the overwriting bytes. *)
Theorem C15_hostile_caller_cannot_affect_the_engine :
  forall ops w' rs, hrun w_init ops = (w', rs) ->
    rs = snd (vrun [] ops) /\ w_abs w' = fst (vrun [] ops).
Proof.
  intros ops w' rs H. destruct (hrun_ok ops w_init w' rs w_init_inv H) as (_ & A & B & _). auto.
Qed.
Print Assumptions C15_hostile_caller_cannot_affect_the_engine.

(* Every memory cell other than the caller's two buffers keeps its content through every later call:
   the engine never writes into a slice it returned earlier (what the caller wrote there stays), nor
   into anything else that already exists. *)
Theorem C15_returned_slices_are_never_modified :
  forall ops w w' rs a, WInv w -> hrun w ops = (w', rs) ->
    a < length (w_heap w) -> a <> w_kbuf w -> a <> w_vbuf w ->
    deref (w_heap w') a = deref (w_heap w) a.
Proof.
  intros ops w w' rs a HI H Ha Hk Hv. destruct (hrun_ok ops w w' rs HI H) as (_ & _ & _ & _ & Hd). exact (Hd a Ha Hk Hv).
Qed.
Print Assumptions C15_returned_slices_are_never_modified.

(* Non-vacuity: one buffer pair reused, scribbled with 0xEE / 0xDD, a returned slice poisoned. *)
Example c15_run :
  let ops := [HPut [107] [1; 2] [238] [221; 221]; HGet [107] [238] [255; 255]; HPut [107] [3] [238] [221];
              HGet [107] [238] [0]; HDel [107] [238]; HGet [107] [238] []]%N in
  snd (hrun w_init ops) = [None; Some [1; 2]; None; Some [3]; None; None]%N /\
  deref (w_heap (fst (hrun w_init ops))) 4 = [255; 255]%N.
Proof. vm_compute. split; reflexivity. Qed.
