(* C20 — A backup taken at any time opens to the state at the time of the backup.  Property theorems only. *)
From KV Require Import Bytes GenConsts Chunk Record Engine Script AMapLemmas EngineInv EngineRefine EngineLog EngineRecover
  EngineCrash EngineMergeRun EnginePhys.
Open Scope N_scope.

(* For every configuration c of the source (either I/O type), every history on a fresh database -
   rotations, batches, merges, adopted merges with their hint file, restarts - and every
   configuration cb used to open the copy: the directory Backup produces opens as a database holding
   exactly the mapping the source had when Backup was called (and satisfies the invariants from which
   all further behaviour of the copy follows: C06_step applies to it); the source still holds that
   mapping, keeps its relation to a pending merge, and goes on (C06_step applies to it as well). *)
Theorem C20_backup_opens_to_the_mapping_at_backup_time :
  forall c cb ops d k ev0 s' rs evs d' kb evb,
    db_open c empty_disk = (OpenOk d k, ev0) -> ops_ok (d, k) ops -> run (d, k) ops = (s', rs, evs) ->
    db_backup (fst s') (snd s') = (d', kb, evb) ->
    (exists dd k2 ev2, db_open cb kb = (OpenOk dd k2, ev2) /\ G dd k2 (final_state [] ops) /\ PhysInv dd /\ d_cfg dd = cb) /\
    G d' (snd s') (final_state [] ops) /\ PhysInv d'.
Proof. exact backup_after_history. Qed.
Print Assumptions C20_backup_opens_to_the_mapping_at_backup_time.

(* One Backup from any state satisfying the invariants (so: repeated backups during continued
   writing): the copy holds the whole log of the source, has no merge directory, carries the hint
   file along, and the source's files keep their records - memory-mapped files are cut back to their
   logical size (and re-extended by the next write: Engine.h_remap). *)
Theorem C20_backup_step :
  forall d k M c d' kb evs,
    LogInv d M -> PhysInv d -> db_backup d k = (d', kb, evs) ->
    LogInv d' M /\ PhysInv d' /\ d_cfg d' = d_cfg d /\ log d' = log d /\
    k_merge kb = None /\ k_hint kb = k_hint k /\ files_log (k_data kb) = log d /\
    exists dd k2 ev2, db_open c kb = (OpenOk dd k2, ev2) /\ LogInv dd M /\ d_cfg dd = c /\ k_merge k2 = None.
Proof. exact db_backup_spec. Qed.
Print Assumptions C20_backup_step.

(* the physical-size invariant the copy relies on holds in every reachable state *)
Theorem C20_physical_size_invariant :
  forall c ops d k ev0 s' rs evs,
    db_open c empty_disk = (OpenOk d k, ev0) -> run (d, k) ops = (s', rs, evs) -> PhysInv (fst s').
Proof.
  intros c ops d k ev0 s' rs evs Ho Hrun. exact (run_phys ops d k s' rs evs (db_open_phys _ _ _ _ _ Ho) Hrun).
Qed.
Print Assumptions C20_physical_size_invariant.

(* Non-vacuity: a memory-mapped source with rotated files, a batch and an adopted merge; the copy is
   opened with standard I/O and returns the source's values; the source continues. *)
Definition c20_src : cfg := mkCfg 200 0 0 1.
Definition c20_dst : cfg := mkCfg 4096 0 0 0.
Definition c20_ops : list op :=
  [OpPut [1] [10]; OpPut [2] [20]; OpPut [1] [11]; OpDel [2]; OpBatch false 7 [BPut [3] [30]; BPut [4] [40]];
   OpMerge [0; 1; 2; 3]; OpPut [5] [50]; OpRestart c20_src; OpPut [6] [60]].
Example c20_backup_runs :
  match db_open c20_src empty_disk with
  | (OpenOk d k, _) =>
      let '(s', _, _) := run (d, k) c20_ops in
      let '(d', kb, _) := db_backup (fst s') (snd s') in
      match db_open c20_dst kb with
      | (OpenOk dd _, _) =>
          db_list_keys dd = [[1]; [3]; [4]; [5]; [6]] /\ snd (fst (db_get dd [1])) = inl [11] /\
          snd (fst (db_get d' [6])) = inl [60] /\ k_hint kb <> None
      | _ => False
      end
  | _ => False
  end.
Proof. vm_compute. repeat split; try reflexivity. discriminate. Qed.
