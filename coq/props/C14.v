(* C14 — Behaviour is independent of index type, shard count, I/O type and limits. *)
From KV Require Import Bytes Engine Script AMapLemmas EngineRefine EngineRecover EngineOpen EngineMergeRun Index
  IndexProofs ShardProofs.
From Coq Require Import ZArith.
Open Scope N_scope.

(* two scripts that differ only in the configurations their restarts reopen with *)
Definition erase (o : op) : op :=
  match o with OpRestart _ => OpRestart (mkCfg 0 0 0 0) | _ => o end.

Lemma sstep_erase m o : sstep m (erase o) = sstep m o.
Proof. destruct o; reflexivity. Qed.
Lemma srun_erase : forall ops m, srun m (map erase ops) = srun m ops.
Proof. induction ops as [|o ops IH]; intros m; cbn [map srun]; [reflexivity|].
  rewrite sstep_erase. destruct (sstep m o) as [m' r]. rewrite IH. reflexivity. Qed.
Lemma op_ok_erase o : op_ok o -> op_ok (erase o).
Proof. destruct o; auto. Qed.

(* Any two runs of the same operation sequence - started under ANY two configurations
   (file-size limit, sync strategy, bytes-per-sync, I/O type) and reopened at the same points
   with ANY, independently chosen, configurations - return the same results: every value,
   every error, every key list (hence every iteration order), every recovered mapping.
   The index type and the shard count do not occur in the engine model at all: the engine sees
   one ordered map (that the sharded index of every type refines it is the subject of C10). *)
Theorem C14_results_independent_of_configuration :
  forall c1 c2 ops1 ops2 d1 k1 e1 d2 k2 e2 s1 rs1 ev1 s2 rs2 ev2,
  Forall op_ok ops1 -> Forall op_ok ops2 -> map erase ops1 = map erase ops2 ->
  db_open c1 empty_disk = (OpenOk d1 k1, e1) -> db_open c2 empty_disk = (OpenOk d2 k2, e2) ->
  run (d1, k1) ops1 = (s1, rs1, ev1) -> run (d2, k2) ops2 = (s2, rs2, ev2) ->
  map proj rs1 = map proj rs2.
Proof.
  intros c1 c2 ops1 ops2 d1 k1 e1 d2 k2 e2 s1 rs1 ev1 s2 rs2 ev2 Hok1 Hok2 Hsame Ho1 Ho2 Hr1 Hr2.
  destruct (open_empty_log c1 d1 k1 e1 Ho1) as [HL1 Hnm1]. destruct (open_empty_log c2 d2 k2 e2 Ho2) as [HL2 Hnm2].
  rewrite (proj1 (run_log_state ops1 _ _ [] _ _ _ HL1 Hnm1 Hok1 Hr1)).
  rewrite (proj1 (run_log_state ops2 _ _ [] _ _ _ HL2 Hnm2 Hok2 Hr2)).
  rewrite <- (srun_erase ops1), <- (srun_erase ops2), Hsame. reflexivity.
Qed.
Print Assumptions C14_results_independent_of_configuration.

(* the same for scripts with merges (and no restart): results do not depend on the configuration *)
Theorem C14_results_independent_with_merges :
  forall c1 c2 ops d1 k1 e1 d2 k2 e2 s1 rs1 ev1 s2 rs2 ev2,
  Forall no_restart ops ->
  db_open c1 empty_disk = (OpenOk d1 k1, e1) -> db_open c2 empty_disk = (OpenOk d2 k2, e2) ->
  run (d1, k1) ops = (s1, rs1, ev1) -> run (d2, k2) ops = (s2, rs2, ev2) ->
  map proj rs1 = map proj rs2.
Proof.
  intros c1 c2 ops d1 k1 e1 d2 k2 e2 s1 rs1 ev1 s2 rs2 ev2 Hnr Ho1 Ho2 Hr1 Hr2.
  destruct (open_empty c1 d1 k1 e1 Ho1) as [HI1 HR1]. destruct (open_empty c2 d2 k2 e2 Ho2) as [HI2 HR2].
  rewrite (proj1 (run_refines ops _ _ [] _ _ _ HI1 HR1 Hnr Hr1)).
  rewrite (proj1 (run_refines ops _ _ [] _ _ _ HI2 HR2 Hnr Hr2)). reflexivity.
Qed.
Print Assumptions C14_results_independent_with_merges.

(* The same with merges AND restarts anywhere: two runs that issue the same calls - under any configurations,
   reopening under any configurations, each Merge scanning its input files in whatever order (the engine
   ranges over a Go map) - return the same results.  Corollary of the invariant G of C06. *)
Definition erase2 (o : op) : op :=
  match o with OpRestart _ => OpRestart (mkCfg 0 0 0 0) | OpMerge _ => OpMerge [] | _ => o end.
Lemma sstep_erase2 m o : sstep m (erase2 o) = sstep m o.
Proof. destruct o; reflexivity. Qed.
Lemma srun_erase2 : forall ops m, srun m (map erase2 ops) = srun m ops.
Proof. induction ops as [|o ops IH]; intros m; cbn [map srun]; [reflexivity|].
  rewrite sstep_erase2. destruct (sstep m o) as [m' r]. rewrite IH. reflexivity. Qed.

Theorem C14_results_independent_with_merges_and_restarts :
  forall c1 c2 ops1 ops2 d1 k1 e1 d2 k2 e2 s1 rs1 ev1 s2 rs2 ev2,
  map erase2 ops1 = map erase2 ops2 ->
  db_open c1 empty_disk = (OpenOk d1 k1, e1) -> db_open c2 empty_disk = (OpenOk d2 k2, e2) ->
  ops_ok (d1, k1) ops1 -> ops_ok (d2, k2) ops2 ->
  run (d1, k1) ops1 = (s1, rs1, ev1) -> run (d2, k2) ops2 = (s2, rs2, ev2) ->
  map proj rs1 = map proj rs2.
Proof.
  intros c1 c2 ops1 ops2 d1 k1 e1 d2 k2 e2 s1 rs1 ev1 s2 rs2 ev2 Hsame Ho1 Ho2 Hok1 Hok2 Hr1 Hr2.
  pose proof (open_empty_G c1 d1 k1 e1 Ho1) as HG1. pose proof (open_empty_G c2 d2 k2 e2 Ho2) as HG2.
  rewrite (proj1 (run_G ops1 _ _ [] _ _ _ HG1 Hok1 Hr1)).
  rewrite (proj1 (run_G ops2 _ _ [] _ _ _ HG2 Hok2 Hr2)).
  rewrite <- (srun_erase2 ops1), <- (srun_erase2 ops2), Hsame. reflexivity.
Qed.
Print Assumptions C14_results_independent_with_merges_and_restarts.

(* Index type and shard count: for the same index content, ANY two assignments of keys to shards, any two
   shard counts and any two kinds of shard iterator (B-tree, skip list, hash map) give an iterator with the
   same observations after every legal call sequence - both equal the reference iterator of C10. *)
Theorem C14_iteration_independent_of_index_type_and_sharding :
  forall shf1 n1 kind1 shf2 n2 kind2, (0 < n1)%nat -> (0 < n2)%nat ->
  forall rev prefix ix, sorted ix -> forall ops,
    legal rev (refF rev prefix ix) CAll ops ->
    let a := di_new kind1 rev prefix (shards_of shf1 n1 rev ix) in
    let b := di_new kind2 rev prefix (shards_of shf2 n2 rev ix) in
    di_obs a = di_obs b /\ di_run a ops = di_run b ops.
Proof.
  intros shf1 n1 kind1 shf2 n2 kind2 H1 H2 rev prefix ix Hix ops Hl.
  destruct (iterator_refines shf1 n1 H1 kind1 rev prefix ix Hix ops Hl) as [A1 A2].
  destruct (iterator_refines shf2 n2 H2 kind2 rev prefix ix Hix ops Hl) as [B1 B2].
  cbv zeta. split; congruence.
Qed.
Print Assumptions C14_iteration_independent_of_index_type_and_sharding.

(* Shard count: for EVERY requested ShardNum (Go int: zero, negative, beyond the maximum included)
   NewShardedIndex runs with 2^k shards, k <= 10, at least as many as requested unless the maximum of 1024
   is reached, and the shard that locateShard computes for any hash (hash & (n-1)) exists. *)
Theorem C14_every_requested_shard_count_gives_a_usable_index :
  forall cap : Z,
  let n := next_power_of_two cap in
  (exists k, (0 <= k <= 10)%Z /\ n = (2 ^ k)%Z) /\ (cap <= n \/ n = 1024)%Z /\
  forall hash : N, (0 <= shard_of_hash n hash < n)%Z.
Proof. exact shard_count_spec. Qed.
Print Assumptions C14_every_requested_shard_count_gives_a_usable_index.

(* Point operations: for the same index content, ANY two assignments of keys to shards and ANY two requested
   shard counts, every sequence of Put / Get / Delete / Size on the sharded index returns the same results -
   those of the one ordered map the engine model uses - and leaves the shards of the same map. *)
Theorem C14_index_operations_independent_of_sharding :
  forall shf1 cap1 shf2 cap2 ix ops, AMapLemmas.sorted ix ->
  let n1 := Z.to_nat (next_power_of_two cap1) in let n2 := Z.to_nat (next_power_of_two cap2) in
  sh_run shf1 n1 (shards_of shf1 n1 false ix) ops = (shards_of shf1 n1 false (fst (flat_run ix ops)), snd (flat_run ix ops)) /\
  sh_run shf2 n2 (shards_of shf2 n2 false ix) ops = (shards_of shf2 n2 false (fst (flat_run ix ops)), snd (flat_run ix ops)).
Proof.
  intros shf1 cap1 shf2 cap2 ix ops Hs. cbv zeta. split.
  - exact (sharded_refines_flat shf1 _ (shard_count_positive cap1) ops ix Hs).
  - exact (sharded_refines_flat shf2 _ (shard_count_positive cap2) ops ix Hs).
Qed.
Print Assumptions C14_index_operations_independent_of_sharding.

Example C14_shard_counts :
  map next_power_of_two [0; -1; -1099511627776; 1; 2; 3; 16; 17; 1000; 1024; 1025; 5000; 1099511627776]%Z
  = [1; 1; 1; 1; 2; 4; 16; 32; 1024; 1024; 1024; 1024; 1024]%Z.
Proof. vm_compute. reflexivity. Qed.

Example C14_nonvacuous :
  map erase [OpPut [1] [2]; OpRestart (mkCfg 64 1 0 1); OpGet [1]]
  = map erase [OpPut [1] [2]; OpRestart (mkCfg 4096 0 0 0); OpGet [1]].
Proof. reflexivity. Qed.
