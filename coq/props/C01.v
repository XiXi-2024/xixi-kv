(* C01 — Reads return the latest acknowledged write (last-write-wins map semantics).
   Only statements, each closed by a lemma of proofs/ or a few lines, each followed by Print Assumptions. *)
From KV Require Import Bytes GenConsts Chunk Record Engine Script AMapLemmas EngineInv EngineBatch EngineRefine.
Open Scope N_scope.

(* For EVERY configuration (file-size limit, sync strategy, bytes-per-sync, I/O type; index type
   and shard count do not enter the engine model, see C14/C10) and EVERY finite script over
   Put / Get / Delete / ListKeys / Fold / Stat / Sync / batches (NewBatch; any Put/Delete/Get;
   Commit) / Merge, run on a freshly created database: the results - every returned value,
   key-not-found exactly for keys never written or last deleted, every error, the key lists,
   Stat.KeyNum - are those of the same script on a plain ordered map.  Values and keys are
   arbitrary byte strings of any length (records larger than the file limit, multi-block
   records: positions come from the chunk arithmetic proved in C11); rotations happen
   wherever the size estimate says so. *)
Theorem C01_reads_return_latest_write :
  forall c ops d k evs0 s' rs evs,
  Forall no_restart ops ->
  db_open c empty_disk = (OpenOk d k, evs0) ->
  run (d, k) ops = (s', rs, evs) ->
  map proj rs = map proj (srun [] ops).
Proof.
  intros c ops d k evs0 s' rs evs Hnr Hopen Hrun.
  destruct (open_empty c _ _ _ Hopen) as [HI HR].
  exact (proj1 (run_refines ops d k [] s' rs evs HI HR Hnr Hrun)).
Qed.
Print Assumptions C01_reads_return_latest_write.

(* The same from any reachable state: one step preserves the invariant and the abstraction. *)
Theorem C01_step_refines :
  forall d k m o d' k' r evs,
  Inv d -> R d m -> no_restart o -> step (d, k) o = ((d', k'), r, evs) ->
  Inv d' /\ R d' (fst (sstep m o)) /\ proj r = proj (snd (sstep m o)).
Proof. exact step_refines. Qed.
Print Assumptions C01_step_refines.

(* "At every moment": the refinement above is about one step at a time; it carries over to several goroutines because
   the engine performs the log append and the matching index update of a Put, and the existence check, the append and the
   index removal of a Delete, inside ONE critical section of the engine lock - read off db.go on every run by translator
   T2 (gen/GenAtomic.v; 1 Lock, 2 deferred Unlock, 3 Unlock, 4 append, 5 index put, 6 index delete, 7 index get).
   (The interleaving theorem built on it is C08_linearizable.) *)
From KV Require GenAtomic.
Theorem C01_every_write_is_one_step_of_the_map :
  GenAtomic.lockseq_Put = [1; 2; 4; 5] /\ GenAtomic.lockseq_Delete = [1; 2; 7; 4; 6].
Proof. vm_compute. split; reflexivity. Qed.
Print Assumptions C01_every_write_is_one_step_of_the_map.

(* Non-vacuity: a concrete script with an overwrite, a delete, a batch and a merge meets the
   hypotheses, and its results are computed by the model. *)
Example C01_nonvacuous :
  let ops := [OpPut [107] [1; 2]; OpPut [107] [3]; OpGet [107]; OpDel [107]; OpGet [107];
              OpBatch false 7 [BPut [97] [9]; BDel [97]; BPut [97] [8]; BGet [97]]; OpMerge [0]; OpGet [97]; OpList] in
  Forall no_restart ops /\
  map proj (srun [] ops) =
    [RErr None; RErr None; RVal (inl [3]); RErr None; RVal (inr EKeyNotFound);
     RBatch [RErr None; RErr None; RErr None; RVal (inl [8])] None; RMerge None; RVal (inl [8]); RKeys [[97]]].
Proof. split; [repeat constructor|vm_compute; reflexivity]. Qed.
