(* C13 — Sync policy is honoured: acknowledged means flushed when the options say so.
   "flushed f" = the durable length of f (moved only by Sync events: fsync / msync) is its size.
   That an fsync / msync makes the bytes durable is the OS contract (not modelled further). *)
From KV Require Import Bytes GenConsts Engine Script EngineInv EngineRefine EngineRecover EngineSync
  EngineMergeRun EngineSyncMerge.
Open Scope N_scope.

(* The sync invariant holds at every return of every public call of every history (Put, Delete,
   Get, ListKeys, Fold, Stat, Sync, batches, restarts under any configuration):
   - every rotated (older) file is flushed: the engine never rotates away from an unflushed file;
   - the bytes of acknowledged Puts/Deletes that lie beyond the durable length of the active file
     are at most bytesWrite (the running counter the Threshold strategy compares). *)
Theorem C13_sync_invariant_every_step :
  forall c ops d k evs0 s' rs evs,
  Forall op_ok ops ->
  db_open c empty_disk = (OpenOk d k, evs0) ->
  run (d, k) ops = (s', rs, evs) ->
  SyncInv (fst s').
Proof.
  intros c ops d k evs0 s' rs evs Hok Hopen Hrun.
  destruct (open_empty_log c _ _ _ Hopen) as [HL Hnm].
  exact (run_sync ops d k [] s' rs evs HL (open_empty_sync c d k evs0 Hopen) Hnm Hok Hrun).
Qed.
Print Assumptions C13_sync_invariant_every_step.

(* The same for histories with merges anywhere (each scanning its files in any covering order), restarts that
   adopt a finished merge, ignore an abandoned one, or follow an adopted one: Merge flushes the file it
   rotates away from, only reads its input files, and closes - hence flushes - every rewritten file before
   the marker is written; the adopting Open installs closed, flushed files.  SyncG adds to the invariant
   that the files of a finished merge waiting in the side directory are closed and flushed. *)
Theorem C13_sync_invariant_with_merges :
  forall c ops d k evs0 s' rs evs,
  db_open c empty_disk = (OpenOk d k, evs0) ->
  ops_ok (d, k) ops ->
  run (d, k) ops = (s', rs, evs) ->
  SyncInv (fst s').
Proof.
  intros c ops d k evs0 s' rs evs Hopen Hok Hrun.
  pose proof (open_empty_G c _ _ _ Hopen) as HG.
  destruct (open_empty_log c _ _ _ Hopen) as [_ Hnm].
  assert (HS : SyncG d k).
  { split; [exact (open_empty_sync c d k evs0 Hopen)|]. unfold MergeFlushed. rewrite Hnm. exact I. }
  exact (proj1 (run_sync_G ops d k [] s' rs evs HG HS Hok Hrun)).
Qed.
Print Assumptions C13_sync_invariant_with_merges.

Theorem C13_step_with_merges :
  forall d k M o d' k' r evs,
  G d k M -> SyncG d k -> gop_ok d o -> step (d, k) o = ((d', k'), r, evs) -> SyncG d' k'.
Proof. exact step_sync_G. Qed.
Print Assumptions C13_step_with_merges.

(* Always: a successful Put returns with the active file flushed (and every older file flushed).
   Threshold (BytesPerSync > 0): it returns with fewer than BytesPerSync unflushed bytes of
   acknowledged Puts/Deletes. *)
Theorem C13_put :
  forall d k v d' evs, InvF d -> SyncInv d -> db_put d k v = (d', None, evs) ->
  SyncInv d' /\
  (c_sync (d_cfg d) = sync_Always -> flushed (d_active d') /\ older_flushed d') /\
  (c_sync (d_cfg d) = sync_Threshold -> 0 < c_bps (d_cfg d) -> unflushed_plain d' < c_bps (d_cfg d)).
Proof. exact db_put_sync. Qed.
Print Assumptions C13_put.

Theorem C13_delete :
  forall d k d' evs, InvF d -> SyncInv d -> db_delete d k = (d', None, evs) ->
  SyncInv d' /\
  (idx_get (d_index d) k <> None -> len k <> 0 -> c_sync (d_cfg d) = sync_Always -> flushed (d_active d') /\ older_flushed d') /\
  (c_sync (d_cfg d) = sync_Threshold -> 0 < c_bps (d_cfg d) -> d_bytes_write d < c_bps (d_cfg d) -> unflushed_plain d' < c_bps (d_cfg d)).
Proof. exact db_delete_sync. Qed.
Print Assumptions C13_delete.

(* a batch created with Sync is flushed, including its sealing record, when Commit returns; its
   earlier pieces live in rotated files, which are flushed *)
Theorem C13_sync_batch :
  forall d b d' b' e evs, Inv d -> SyncInv d -> b_id b <> 0 -> b_committed b = false ->
  batch_commit d b = (d', b', e, evs) ->
  SyncInv d' /\ (b_sync b = true -> b_staged b <> [] -> flushed (d_active d') /\ older_flushed d').
Proof. exact batch_commit_sync. Qed.
Print Assumptions C13_sync_batch.

(* Sync() flushes the active file; Close() flushes every file *)
Theorem C13_sync_flushes : forall d d' evs, db_sync d = (d', evs) -> flushed (d_active d').
Proof. exact db_sync_flushes. Qed.
Print Assumptions C13_sync_flushes.
Theorem C13_close_flushes :
  forall d k k' evs, db_close d k = (k', evs) -> Forall (fun x => flushed (snd x)) (k_data k').
Proof. exact db_close_flushes. Qed.
Print Assumptions C13_close_flushes.

(* a file is flushed before the engine rotates away from it *)
Theorem C13_rotation_flushes :
  forall d d' evs, older_flushed d -> db_rotate d = (d', evs) -> older_flushed d' /\ flushed (d_active d').
Proof. intros d d' evs Ho Hr. destruct (db_rotate_sync d d' evs Ho Hr) as ((_ & _ & H1) & H2). auto. Qed.
Print Assumptions C13_rotation_flushes.

Example C13_nonvacuous :
  let ops := [OpPut [1] [2]; OpBatch true 3 [BPut [4] [5]]; OpSync; OpRestart (mkCfg 64 2 10 1); OpDel [1]] in
  Forall op_ok ops.
Proof. repeat constructor; discriminate. Qed.
