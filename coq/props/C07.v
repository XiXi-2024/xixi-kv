(* C07 — A crash during merge or during merge adoption never loses or resurrects data.
   Property theorems only; proofs in proofs/EngineMergeCrash.v, EngineMergeRun.v, EngineAdopt.v and, for the two
   durability theorems, EngineSyncMerge.v. *)
From KV Require Import Bytes GenConsts Chunk Record Engine Script Crash AMapLemmas EngineInv EngineRefine EngineLog EngineRecover
  EngineCrash EngineOpen EngineAdopt EngineMerge EngineKeep EngineMergeRun EngineMergeCrash EngineSync EngineSyncMerge.
Open Scope N_scope.

(* While Merge is running the marker does not exist yet.  Whatever the merge directory holds at the
   instant of the crash (any files, any hint file, no marker or an unreadable one), and for every
   state d of the database reachable by any history, the image of the data directory (rotated files
   intact, the active file cut at cutA) opens under any configuration; the merge directory is ignored;
   when nothing was cut (the process died) the database holds exactly the mapping M again. *)
Theorem C07_crash_during_merge :
  forall d M cuts cutA c hint md,
    LogInv d M -> (forall id f, In (id, f) (d_older d) -> lf_size f <= cuts id f) -> ignored md ->
    exists d' k' evs, db_open c (mkDisk (crash_files d cuts cutA) hint (Some md)) = (OpenOk d' k', evs) /\
      LogOK d' (fst (sreplay [] [] (surviving_log d cutA))) /\
      (lf_size (d_active d) <= cutA -> LogInv d' M) /\
      (exists md', k_merge k' = Some md' /\ ignored md').
Proof. exact crash_during_merge. Qed.
Print Assumptions C07_crash_during_merge.

(* Merge begins by removing a left-over merge directory - possibly a FINISHED one that no Open has adopted yet.
   It removes the finished-marker first and the directory afterwards: os.RemoveAll unlinks entry by entry in an
   order the file system chooses, so a process that dies inside it leaves ANY subset of the entries.  Whatever
   subset is gone, what is left carries no marker: it is a directory of the family C07_crash_during_merge
   quantifies over (ignored by every later Open), and the data directory and its hint file are untouched. *)
Theorem C07_interrupted_removal_of_a_merge_directory_is_ignored :
  (forall d k order md, k_merge k = Some md ->
     exists pre post, snd (db_merge d k order) = pre ++ [EvRemove MMarker; EvRemoveAllMerge; EvMkdirMerge] ++ post /\
                      pre = snd (db_rotate d)) /\
  (forall s, fs_marker (fs_apply s (EvRemove MMarker)) = None) /\
  (forall s gone m, fs_marker s = None ->
     match k_merge (fs_to_disk (fs_partial_rm s gone) m) with Some md => ignored md | None => True end) /\
  (forall s gone m, k_data (fs_to_disk (fs_partial_rm s gone) m) = k_data (fs_to_disk s m) /\
                    k_hint (fs_to_disk (fs_partial_rm s gone) m) = k_hint (fs_to_disk s m)).
Proof.
  split; [exact merge_removes_marker_first|]. split; [exact remove_marker_clears|].
  split; [exact partial_removal_is_ignored|exact partial_removal_keeps_data].
Qed.
Print Assumptions C07_interrupted_removal_of_a_merge_directory_is_ignored.

(* The process dies after Merge has written its marker (the merge is finished but not adopted),
   possibly many operations later: the image opens, adopts the merge, and holds exactly M. *)
Theorem C07_crash_with_finished_merge :
  forall d k M cuts cutA c,
    G d k M -> (forall id f, In (id, f) (d_older d) -> lf_size f <= cuts id f) -> lf_size (d_active d) <= cutA ->
    forall md, k_merge k = Some md -> ~ ignored md ->
    exists d' k' evs, db_open c (mkDisk (crash_files d cuts cutA) (k_hint k) (Some md)) = (OpenOk d' k', evs) /\
      LogInv d' M /\ k_merge k' = None.
Proof. exact crash_with_finished_merge. Qed.
Print Assumptions C07_crash_with_finished_merge.

(* The adoption step of Open is interrupted at any point and run again.  The directory states an
   interrupted adoption leaves: the merge directory still holds the rewritten files j .. n-1 (files
   below j were already renamed into the data directory: j = 0 nothing moved yet, j = n all moved);
   once a file was moved every original from n up to the marker id is gone, before that any of them
   may or may not have been removed (no constraint); the data files below n that were not yet replaced
   are arbitrary; the hint file is still in the merge directory, or (only when j = n) already moved.
   From EVERY such state Open finishes the adoption and the database holds exactly the mapping M that
   the rewritten files (M0) and the files written after the merge (PL) denote - the same as the
   uninterrupted adoption; the merge directory is gone.  A second crash during the retry leaves a
   state of the same family. *)
Theorem C07_interrupted_adoption_resumes :
  forall c k md mid n j h MFull M0 PL M,
    k_merge k = Some md -> m_marker md = Some mid -> 0 < mid -> 0 < n -> n <= mid -> j <= n ->
    merged_ok MFull n -> m_files md = from_ j MFull ->
    asc (k_data k) -> Forall file_ok (k_data k) ->
    (forall x, x < j -> older_get (k_data k) x = older_get MFull x) ->
    (0 < j -> forall x, n <= x -> x < mid -> older_get (k_data k) x = None) ->
    (m_hint md = Some h \/ (m_hint md = None /\ k_hint k = Some h /\ j = n)) ->
    hf_recs h = hint_of (recs_of MFull) -> Forall (fun rp => plain_live (fst rp)) (recs_of MFull) ->
    s_apply_recs [] (files_log MFull) = M0 ->
    files_log (from_ mid (k_data k)) = PL -> sreplay M0 [] PL = (M, []) ->
    exists d' k' evs, db_open c k = (OpenOk d' k', evs) /\ LogInv d' M /\ k_merge k' = None /\
      log d' = files_log MFull ++ PL /\ d_cfg d' = c.
Proof. exact open_pending. Qed.
Print Assumptions C07_interrupted_adoption_resumes.

(* ... and the data directory the resumed adoption produces is the one the uninterrupted adoption
   produces: the rewritten files, nothing from n up to the marker id, the later files untouched. *)
Theorem C07_resumed_adoption_layout :
  forall k md mid n j h MFull,
    k_merge k = Some md -> m_marker md = Some mid -> 0 < mid -> 0 < n -> n <= mid -> j <= n ->
    merged_ok MFull n -> m_files md = from_ j MFull ->
    asc (k_data k) -> Forall file_ok (k_data k) ->
    (forall x, x < j -> older_get (k_data k) x = older_get MFull x) ->
    (0 < j -> forall x, n <= x -> x < mid -> older_get (k_data k) x = None) ->
    (m_hint md = Some h \/ (m_hint md = None /\ k_hint k = Some h /\ j = n)) ->
    exists data2 ev, load_merge_files k = (mkDisk data2 (Some h) None, mid, ev) /\
      below n data2 = MFull /\ from_ mid data2 = from_ mid (k_data k) /\
      (forall id f, In (id, f) data2 -> id < n \/ mid <= id).
Proof.
  intros k md mid n j h MFull H1 H2 H3 H4 H5 H6 H7 H8 H9 H10 H11 H12 H13.
  destruct (load_merge_resume k md mid n j h MFull H1 H2 H3 H4 H5 H6 H7 H8 H9 H10 H11 H12 H13) as (data2 & ev & A & _ & _ & B & C & D).
  exists data2, ev. auto.
Qed.
Print Assumptions C07_resumed_adoption_layout.

(* After the recovering Open the invariant of C06 holds again: any later Open (a finished merge is
   adopted once: the merge directory is gone) returns the same mapping. *)
Theorem C07_later_opens_agree :
  forall d k M c s1 r1 e1,
    G d k M -> step (d, k) (OpRestart c) = (s1, r1, e1) -> G (fst s1) (snd s1) M.
Proof.
  intros d k M c [d1 k1] r1 e1 HG H1. exact (proj1 (step_G d k M (OpRestart c) d1 k1 r1 e1 HG I H1)).
Qed.
Print Assumptions C07_later_opens_agree.

(* A finished merge is adoptable only over durable data.  When Merge has written its marker - also when
   Put and Delete calls of other clients ran between the steps of its scan (any calls, any slots) - every
   data file of the database is flushed: the files rotated away meanwhile were flushed at rotation and
   Merge flushes the active file right before it writes the marker.  So every record whose index entry
   made the scan drop an older version is durable at the moment the older version becomes droppable,
   and no power loss after the marker can take the newer version away while the adopted merge output no
   longer holds the older one.  (A batch holds the engine lock from NewBatch to Commit; the flush needs
   that lock, so it also waits for an open batch to commit - a merge never becomes adoptable while it
   has seen the index entries of an uncommitted batch.  This is what the engine's flush before the marker is for.) *)
Theorem C07_finished_merge_leaves_every_data_file_flushed :
  forall d k M order pro sched d' k' evs,
  LogInv d M -> SyncInv d -> db_merge_i d k order pro sched = (d', k', None, evs) ->
  flushed (d_active d') /\ older_flushed d'.
Proof. intros d k M order pro sched d' k' evs HL. exact (db_merge_i_durable d k order pro sched d' k' evs (proj1 (proj1 (proj1 HL)))). Qed.
Print Assumptions C07_finished_merge_leaves_every_data_file_flushed.

Theorem C07_finished_merge_leaves_every_data_file_flushed_sequential :
  forall d k order d' k' evs,
  InvF d -> SyncInv d -> db_merge d k order = (d', k', None, evs) ->
  flushed (d_active d') /\ older_flushed d'.
Proof. exact db_merge_durable. Qed.
Print Assumptions C07_finished_merge_leaves_every_data_file_flushed_sequential.

(* Non-vacuity, on the event-level crash model (Crash.v) that the correspondence run compares with
   the real engine: a history with a merge whose output has several files; the process dies after
   each single file-system event of Merge, of Close and of the adopting Open; every one of these
   images opens to the mapping before the merge. *)
Definition c07_cfg : cfg := mkCfg 64 0 0 0.
Definition c07_mut : list op :=
  [OpPut [1] [10;10;10;10;10;10;10;10;10;10;10;10;10;10;10;10;10;10;10;10]; OpPut [2] [20]; OpPut [1] [11;11;11;11;11;11;11;11;11;11;11;11;11;11;11;11;11;11;11;11;11;11];
   OpPut [3] [30;30;30;30;30;30;30;30;30;30;30;30;30;30;30;30;30;30;30;30;30;30;30;30]; OpDel [2]; OpPut [4] [40]; OpPut [5] [50]].
Definition c07_tail : list op := [OpMerge [0; 1; 2; 3; 4; 5; 6; 7; 8]; OpRestart c07_cfg].
Definition dump_of (d : db) : list (bytes * bytes) :=
  map (fun k => (k, match snd (fst (db_get d k)) with inl v => 1 :: v | inr _ => [0] end)) (db_list_keys d).
Fixpoint dumps_eqb (a b : list (bytes * bytes)) : bool :=
  match a, b with
  | [], [] => true
  | (k1, v1) :: a', (k2, v2) :: b' => bytes_eqb k1 k2 && bytes_eqb v1 v2 && dumps_eqb a' b'
  | _, _ => false
  end.
Example c07_every_crash_point_recovers :
  match db_open c07_cfg empty_disk with
  | (OpenOk d k, ev0) =>
      let '(s1, _, ev1) := run (d, k) c07_mut in
      let '(s2, _, ev2) := run s1 c07_tail in
      let evs := ev0 ++ ev1 ++ ev2 in
      let k0 := length (ev0 ++ ev1) in
      (20 < length ev2)%nat /\
      forallb (fun i => match crash_open c07_cfg evs (k0 + i) CutNone with
                        | (OpenOk d' _, _) => dumps_eqb (dump_of d') (dump_of (fst s1)) && (3 <=? len (dump_of d'))
                        | _ => false
                        end) (seq 0 (S (length ev2))) = true
  | _ => False
  end.
Proof. vm_compute. split; [repeat constructor|reflexivity]. Qed.
