(* C18 — Hint files faithfully index the merged data files.  Property theorems only. *)
From KV Require Import Bytes GenConsts Chunk Record Engine Script AMapLemmas EngineInv EngineRefine EngineLog EngineRecover
  EngineOpen EngineAdopt EngineMerge EngineMergeRun.
Open Scope N_scope.

(* After every successful Merge (any database state reachable by any history, any scan order covering
   the files, any file-size limit hence any number of output files, keys of any length and content):
   the hint file has exactly one entry per record of the rewritten files, in the same order, naming
   that record's key; every entry's location is a location at which the rewritten file with the
   entry's file id holds a plain, live (not deleted, not batch-tagged) record with exactly that key. *)
Theorem C18_hint_entries_name_their_records :
  forall d k M order d' k' evs,
    LogInv d M -> order_ok d order -> db_merge d k order = (d', k', None, evs) ->
    exists md h, k_merge k' = Some md /\ m_hint md = Some h /\
      map fst (hf_recs h) = map r_key (files_log (m_files md)) /\
      forall key p, In (key, p) (hf_recs h) ->
        exists f r, older_get (m_files md) (p_fid p) = Some f /\
                    lf_lookup (lf_recs f) (p_bid p) (p_off p) = Some r /\ r_key r = key /\ plain_live r.
Proof.
  intros d k M order d' k' evs HL Hord Hm.
  destruct (db_merge_out d k M order d' k' None evs HL (fun _ => Hord) Hm) as (_ & _ & _ & _ & md & Hk & Hmd).
  pose proof Hmd as (n & h & _ & Hh & _). exists md, h. split; [exact Hk|]. split; [exact Hh|].
  exact (hint_entries_faithful md _ M h Hmd Hh).
Qed.
Print Assumptions C18_hint_entries_name_their_records.

(* Loading the index from the hint entries and then scanning only the files written after the merge
   builds the same index - the same keys with the same positions and sizes - as scanning every file
   of the directory record by record. *)
Theorem C18_hint_load_equals_scan :
  forall c aid af older files n mid tot rc,
    files = below n files ++ from_ mid files ->
    Forall (fun rp => plain_live (fst rp)) (recs_of (below n files)) ->
    d_index (fst (replay_files (mkDb c aid af older (hint_index (hint_of (recs_of (below n files))) []) 0 tot rc) []
                               (from_ mid files) 0)) =
    d_index (fst (replay_files (mkDb c aid af older [] 0 0 0) [] files 0)).
Proof. exact hint_index_equals_scan_index. Qed.
Print Assumptions C18_hint_load_equals_scan.

(* the index a hint file loads is the index the hint entries describe: load_hint = hint_index *)
Theorem C18_load_hint_index :
  forall H d x, d_index (fst (load_hint d H x)) = hint_index H (d_index d).
Proof. exact load_hint_index. Qed.
Print Assumptions C18_load_hint_index.

(* Open through the hint (the adopting restart) and every later Open (which scans) return the same
   values for every key: both are the mapping before the restart (C06_step, OpRestart case). *)
Theorem C18_hint_open_then_scan_open :
  forall d k M c1 c2 s1 r1 e1 s2 r2 e2,
    G d k M ->
    step (d, k) (OpRestart c1) = (s1, r1, e1) -> step s1 (OpRestart c2) = (s2, r2, e2) ->
    G (fst s1) (snd s1) M /\ G (fst s2) (snd s2) M.
Proof.
  intros d k M c1 c2 [d1 k1] r1 e1 [d2 k2] r2 e2 HG H1 H2.
  destruct (step_G d k M (OpRestart c1) d1 k1 r1 e1 HG I H1) as [HG1 _].
  destruct (step_G d1 k1 M (OpRestart c2) d2 k2 r2 e2 HG1 I H2) as [HG2 _]. auto.
Qed.
Print Assumptions C18_hint_open_then_scan_open.

(* the configuration (64-byte data files) and the history of the example c18_hint_nonempty below *)
Definition c18_cfg : cfg := mkCfg 64 0 0 0.
Definition c18_ops : list op :=
  [OpPut [1] [10;10;10;10;10;10;10;10;10;10;10;10;10;10;10;10;10;10;10;10]; OpPut [2] [20]; OpPut [1] [11;11;11;11;11;11;11;11;11;11;11;11;11;11;11;11;11;11;11;11;11;11];
   OpPut [3] [30;30;30;30;30;30;30;30;30;30;30;30;30;30;30;30;30;30;30;30;30;30;30;30]; OpDel [2]; OpPut [4] [40]; OpPut [5] [50]; OpPut [6] [60]].
(* Merge encodes the records it rewrites and the hint entries it writes through two scratch buffers of the engine
   (the record-header buffer, the hint-position buffer) while other clients write: every use of those buffers, as
   extracted from the current source with the locks held (translator T2c), follows the lockset discipline - the merge
   works on buffers no concurrent Put / Delete / batch touches (its temporary engine has a header buffer of its own;
   the hint buffer is used by the one running merge only). *)
From KV Require LockSet GenAccess.
Theorem C18_merge_encodes_through_private_buffers :
  let sel := fun a => Nat.eqb (LockSet.a_loc a) GenAccess.loc_db_header_scratch || Nat.eqb (LockSet.a_loc a) GenAccess.loc_db_hint_scratch in
  LockSet.lockset_ok (filter sel GenAccess.gen_accesses) = true /\
  Nat.leb 2 (length (filter sel GenAccess.gen_accesses)) = true /\ GenAccess.gen_truncated = false.
Proof. vm_compute. repeat split; reflexivity. Qed.
Print Assumptions C18_merge_encodes_through_private_buffers.

(* Non-vacuity: a merge whose output needs more than one file; the hint lists the five live keys. *)
Example c18_hint_nonempty :
  match db_open c18_cfg empty_disk with
  | (OpenOk d k, _) =>
      let '(s', _, _) := run (d, k) c18_ops in
      let '(d', k', e, _) := db_merge (fst s') (snd s') [0; 1; 2; 3; 4; 5; 6; 7; 8; 9] in
      e = None /\
      match k_merge k' with
      | Some md => match m_hint md with
                   | Some h => map fst (hf_recs h) = [[1]; [3]; [4]; [5]; [6]] /\ (1 < len (m_files md))
                   | None => False end
      | None => False end
  | _ => False
  end.
Proof. vm_compute. repeat split; reflexivity. Qed.
