(* C02 — Clean restart preserves the exact key-value mapping, under any configuration. *)
From KV Require Import Bytes GenConsts Chunk Record Engine Script AMapLemmas
  EngineRefine EngineLog EngineRecover EngineOpen EngineMergeRun.
Open Scope N_scope.

(* For EVERY history over Put / Get / Delete / ListKeys / Fold / Stat / Sync / batches (non-zero
   batch ids) and restarts (Close; Open c') placed anywhere and any number of times, each with
   an arbitrary configuration c' (file-size limit, sync strategy, I/O type - writer and reader
   configurations are independent), on a freshly created database: every result equals that of
   the same script on a plain ordered map on which a restart is the identity.  In particular
   every Open after a Close succeeds (its result is "no error"), deleted keys stay deleted,
   committed batches stay applied (atomically: the batch-finished record seals exactly the
   records of its batch, across file boundaries).
   Histories containing Merge: the next theorem. *)
Theorem C02_restart_preserves_mapping :
  forall c ops d k evs0 s' rs evs,
  Forall op_ok ops ->
  db_open c empty_disk = (OpenOk d k, evs0) ->
  run (d, k) ops = (s', rs, evs) ->
  map proj rs = map proj (srun [] ops).
Proof.
  intros c ops d k evs0 s' rs evs Hok Hopen Hrun.
  destruct (open_empty_log c _ _ _ Hopen) as [HL Hnm].
  exact (proj1 (run_log_state ops d k [] s' rs evs HL Hnm Hok Hrun)).
Qed.
Print Assumptions C02_restart_preserves_mapping.

(* The same with merges anywhere in the history (each scanning its input files in any order that covers
   them): restarts after a merge that finished (the restart adopts it), after one that was abandoned,
   after an adopted one, with further writes in between - the mapping is never changed by a restart.
   This is the invariant G of C06 specialised to Restart: from EVERY reachable state, Close; Open c
   succeeds and yields a state in the invariant for the same mapping. *)
Theorem C02_restart_preserves_mapping_with_merges :
  forall c ops d k ev0 s' rs evs,
    db_open c empty_disk = (OpenOk d k, ev0) ->
    ops_ok (d, k) ops ->
    run (d, k) ops = (s', rs, evs) ->
    map proj rs = map proj (srun [] ops).
Proof.
  intros c ops d k ev0 s' rs evs Ho Hok Hrun.
  pose proof (open_empty_G c d k ev0 Ho) as HG.
  exact (proj1 (run_G ops d k [] s' rs evs HG Hok Hrun)).
Qed.
Print Assumptions C02_restart_preserves_mapping_with_merges.

Theorem C02_restart_from_any_reachable_state :
  forall d k M c d' k' r evs,
    G d k M -> step (d, k) (OpRestart c) = ((d', k'), r, evs) -> G d' k' M /\ r = RErr None.
Proof. exact G_restart. Qed.
Print Assumptions C02_restart_from_any_reachable_state.

(* The mechanism: after Close, Open with ANY configuration rebuilds, by replaying the data files
   in ascending id order with per-batch buffering, a database that denotes the same map and
   whose log is the same. *)
Theorem C02_close_open :
  forall d k m c k1 ev1,
  LogInv d m -> k_merge k = None -> db_close d k = (k1, ev1) ->
  exists d' k2 ev2, db_open c k1 = (OpenOk d' k2, ev2) /\ LogInv d' m /\ k_merge k2 = None /\ d_cfg d' = c.
Proof. exact restart_spec. Qed.
Print Assumptions C02_close_open.

(* Recovery computes what the log denotes: the index built by Open resolves to the map obtained
   by replaying the records of all data files (plain records at once, tagged records when the
   batch-finished record of their batch is read). *)
Theorem C02_open_replays_log :
  forall c k, disk_ok k ->
  exists d k' evs, db_open c k = (OpenOk d k', evs) /\
    LogOK d (fst (sreplay [] [] (files_log (k_data k)))) /\
    log d = files_log (k_data k) /\ d_cfg d = c /\ k_merge k' = None.
Proof. exact db_open_spec. Qed.
Print Assumptions C02_open_replays_log.

Example C02_nonvacuous :
  let c1 := mkCfg 200 0 0 0 in let c2 := mkCfg 64 1 0 1 in
  let ops := [OpPut [107] [1]; OpBatch true 5 [BPut [97] [2]; BDel [107]]; OpRestart c2; OpGet [107]; OpGet [97];
              OpRestart c1; OpList] in
  Forall op_ok ops /\
  map proj (srun [] ops) = [RErr None; RBatch [RErr None; RErr None] None; RErr None;
                            RVal (inr EKeyNotFound); RVal (inl [2]); RErr None; RKeys [[97]]].
Proof. split; [repeat constructor; discriminate|vm_compute; reflexivity]. Qed.
