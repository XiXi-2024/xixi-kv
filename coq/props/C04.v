(* C04 — A batch is all-or-nothing and, once committed, durable. *)
From KV Require Import Bytes GenConsts Chunk Record Engine Script EngineInv EngineBatch EngineRefine EngineLog
  EngineRecover EngineOpen EngineSync EngineCrash Crc FileProofs ZeroProofs.
From Coq Require Import List.
Import ListNotations.
Open Scope N_scope.

(* What a batch adds to the log - its records, tagged with the batch id, in whatever pieces and
   across whatever files they were flushed, followed by one batch-finished record - is atomic:
   replaying ANY prefix of it leaves the map as it was before the batch, and replaying all of it
   yields the map with the whole batch applied.  There is no third outcome. *)
Theorem C04_batch_log_is_atomic :
  forall m id st key, id <> 0 -> Forall ok_type st ->
  (forall Q, is_prefix Q (map (tag id) st ++ [mkRec rt_BatchFinished key [] id]) ->
     fst (sreplay m [] Q) = m \/ fst (sreplay m [] Q) = s_apply_recs m st) /\
  sreplay m [] (map (tag id) st ++ [mkRec rt_BatchFinished key [] id]) = (s_apply_recs m st, []).
Proof. exact atomic_batch. Qed.
Print Assumptions C04_batch_log_is_atomic.

(* every operation of every history - a batch of any size, flushed in any number of pieces,
   included - extends the log by a chunk with that all-or-nothing property *)
Theorem C04_every_operation_is_atomic_in_the_log :
  forall d k m o d' k' r evs,
  LogInv d m -> k_merge k = None -> op_ok o -> step (d, k) o = ((d', k'), r, evs) ->
  exists X, log d' = log d ++ X /\
    (forall Q, is_prefix Q X -> fst (sreplay m [] Q) = m \/ fst (sreplay m [] Q) = fst (sstep m o)) /\
    sreplay m [] X = (fst (sstep m o), []).
Proof.
  intros d k m o d' k' r evs HL Hnm Hok Hst.
  destruct (step_chunk _ _ _ _ _ _ _ _ HL (or_intror Hnm) Hok Hst) as (X & HX & Hat & Hfull). exists X. auto.
Qed.
Print Assumptions C04_every_operation_is_atomic_in_the_log.

(* hence after ANY crash (any cut of the active file) the recovered mapping is the state after a
   whole number of operations: either every put and delete of a batch is visible or none is *)
Theorem C04_crash_never_splits_a_batch :
  forall c ops d k evs0 s' rs evs cuts cutA c',
  Forall op_ok ops ->
  db_open c empty_disk = (OpenOk d k, evs0) ->
  run (d, k) ops = (s', rs, evs) ->
  (forall id f, In (id, f) (d_older (fst s')) -> lf_size f <= cuts id f) ->
  exists d' k' evs' j, db_open c' (crash_disk_of (fst s') cuts cutA) = (OpenOk d' k', evs') /\
    (j <= length ops)%nat /\ R d' (nth j (states [] ops) []).
Proof.
  intros c ops d k evs0 s' rs evs cuts cutA c' Hok Hopen Hrun Hcuts.
  destruct (crash_prefix_from_empty c ops d k evs0 s' rs evs cuts cutA c' Hok Hopen Hrun Hcuts) as (d' & k' & evs' & j & A & B & C & _).
  exists d', k', evs', j. auto.
Qed.
Print Assumptions C04_crash_never_splits_a_batch.

(* once Commit has returned, the batch is visible in the live database and after every later
   clean restart (C02), and - created with Sync - flushed including its sealing record (C13) *)
Theorem C04_committed_batch_survives_restart :
  forall d k m sync id bops d1 k1 rs e ev1 c k2 ev2,
  LogInv d m -> k_merge k = None -> id <> 0 ->
  step (d, k) (OpBatch sync id bops) = ((d1, k1), RBatch rs e, ev1) ->
  db_close d1 k1 = (k2, ev2) ->
  exists d' k3 ev3, db_open c k2 = (OpenOk d' k3, ev3) /\ LogInv d' (fst (s_bops m bops)).
Proof.
  intros d k m sync id bops d1 k1 rs e ev1 c k2 ev2 HL Hnm Hid Hst Hc.
  destruct (step_log d k m (OpBatch sync id bops) d1 k1 _ ev1 HL Hnm Hid Hst) as (HL1 & Hnm1 & _). cbn [sstep] in HL1.
  destruct (s_bops m bops) as [mf rsf]. cbn [fst] in *.
  destruct (restart_spec d1 k1 mf c k2 ev2 HL1 Hnm1 Hc) as (d' & k3 & ev3 & Ho & HL' & _). eauto.
Qed.
Print Assumptions C04_committed_batch_survives_restart.

Theorem C04_sync_batch_is_flushed :
  forall d b d' b' e evs, Inv d -> SyncInv d -> b_id b <> 0 -> b_committed b = false ->
  batch_commit d b = (d', b', e, evs) ->
  SyncInv d' /\ (b_sync b = true -> b_staged b <> [] -> flushed (d_active d') /\ older_flushed d').
Proof. exact batch_commit_sync. Qed.
Print Assumptions C04_sync_batch_is_flushed.

(* A power failure may lose unsynced pages in any order.  Byte level (model/Chunk.v, the reader of Open and Merge): a file
   written from empty by any sequence of records; where the next record would begin (behind the block-tail padding when
   the writer pads) a lost block reads back as zeros; behind those zeros ANY bytes - the later records of a batch and its
   batch-finished record included.  The scan delivers exactly the records in front of the hole and ends as a torn tail:
   a batch with a hole in it never meets its batch-finished record, so recovery shows none of it (the record-level
   theorems above then apply to the log cut at the hole).  crc [0;0;0] <> 0 holds for CRC-32 (example below). *)
Theorem C04_nothing_behind_a_lost_block_is_replayed :
  forall crc, (forall b, crc b < 4294967296) -> crc [0; 0; 0] <> 0 ->
  forall ds fid bs ps bid' bsz' behind,
  Forall nonempty ds ->
  write_all_buf crc fid 0 0 ds = (bs, ps, bid', bsz') ->
  scan crc (bs ++ zeros (pad_len bsz') ++ z7 ++ behind) fid = (combine ds ps, STorn).
Proof. exact scan_stops_at_hole. Qed.
Print Assumptions C04_nothing_behind_a_lost_block_is_replayed.

(* the hypothesis about the checksum holds for the checksum the engine uses, and the statement is not vacuous: one
   record, a hole, then a complete valid record behind it - which the scan does not deliver *)
Example C04_hole_nonvacuous :
  crc32 [0; 0; 0] <> 0 /\
  (let f1 := fst (df_write crc32 (df_open 0 []) [1; 2; 3]) in
   let behind := zeros (32768 - 10 - 7) ++ df_bytes (fst (df_write crc32 (df_open 0 []) [4; 5])) in
   match scan crc32 (df_bytes f1 ++ z7 ++ behind) 0 with
   | ([(d, _)], STorn) => bytes_eqb d [1; 2; 3]
   | _ => false
   end = true).
Proof.
  assert (Hz : crc32 [0; 0; 0] <> 0) by (vm_compute; discriminate).
  split; [exact Hz|]. cbv zeta.
  (* what lies behind the hole plays no part: it stays a variable, and crc32 is never run over it *)
  generalize (zeros (32768 - 10 - 7) ++ df_bytes (fst (df_write crc32 (df_open 0 []) [4; 5]))). intros behind.
  rewrite df_write_bytes. change (df_bytes (df_open 0 [])) with (@nil byte). change (df_bsz (df_open 0 [])) with 0. cbn [app].
  assert (H : scan crc32 (frame_bytes crc32 0 [1; 2; 3] ++ z7 ++ behind) 0 = ([([1; 2; 3], mkPos 0 0 0 10)], STorn)).
  { apply (scan_stops_at_hole crc32 DamageProofs.crc32_u32 Hz [[1; 2; 3]] 0 _ [mkPos 0 0 0 10] 0 10 behind).
    - repeat constructor.
    - cbn [write_all_buf]. rewrite app_nil_r. reflexivity. }
  rewrite H. reflexivity.
Qed.

Example C04_nonvacuous : (7 : N) <> 0 /\ Forall ok_type [mkRec rt_Normal [1] [2] 0; mkRec rt_Deleted [3] [] 0].
Proof. split; [discriminate|repeat constructor]. Qed.
