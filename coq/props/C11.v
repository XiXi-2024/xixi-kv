(* C11 — Block/chunk framing round-trips every record at every offset.
   Only statements, each closed by a lemma proved in proofs/ or by a few lines, each followed by
   Print Assumptions.  [crc] is an arbitrary function with 32-bit results. *)
From KV Require Import Bytes GenConsts Chunk BytesLemmas ChunkProofs DamageProofs FramingProofs FileProofs FileShift.
Open Scope N_scope.

Definition crc_ok (crc : bytes -> N) : Prop := forall b, crc b < 4294967296.

(* Any history of one data file - single writes, multi-record flushes issued as one Write
   call, close-and-reopen, Write calls the back-end refuses (FRefused: the staged records are
   dropped with the failed call and are not part of what was written) - of records of ANY non-zero length, hence starting at every
   block offset and spanning any number of blocks:
   - the logical size equals the physical size,
   - a sequential scan returns exactly the records written, in order, each with the very
     position (file, block, offset, size) reported at write time, then a clean EOF wherever
     in a block the file ends,
   - every reported position reads back its record by random access. *)
Theorem C11_datafile_roundtrip :
  forall crc, crc_ok crc -> forall fid ops,
  Forall fop_ok ops ->
  let f := fst (df_run crc (df_open fid []) ops) in
  let out := snd (df_run crc (df_open fid []) ops) in
  df_size f = len (df_bytes f) /\
  scan crc (df_bytes f) (df_id f) = (out, SEof) /\
  (forall d p, In (d, p) out -> read_at crc f (p_bid p) (p_off p) = Ok d).
Proof. exact datafile_roundtrip. Qed.
Print Assumptions C11_datafile_roundtrip.

(* One record written at ANY writer state (block, offset < 32768), after any prefix and
   before any suffix: the reported size is exactly the bytes occupied (block-tail padding
   excluded), the new logical end is the physical end, the start position is where the
   reader stands after skipping an unusable block tail, and both readers return the data. *)
Theorem C11_record_at_every_offset :
  forall crc, crc_ok crc ->
  forall fid bid bsz pre (data : bytes) post p bid' bsz',
  bsz < blockSize -> len pre = bid * blockSize + bsz -> 0 < len data ->
  frame fid bid bsz (len data) = (p, bid', bsz') ->
  let f := pre ++ frame_bytes crc bsz data ++ post in
  len (pre ++ frame_bytes crc bsz data) = bid' * blockSize + bsz' /\
  bsz' < blockSize /\
  (p_bid p, p_off p) = norm bid bsz /\ p_fid p = fid /\
  len (frame_bytes crc bsz data) = pad_len bsz + p_size p /\
  reader_next crc f fid (p_bid p) (p_off p) = Ok (data, p, fst (norm bid' bsz'), snd (norm bid' bsz')) /\
  read_at_fuel crc (blocks_fuel (len f)) f (len f) (p_bid p) (p_off p) [] = Ok data.
Proof. exact record_roundtrip. Qed.
Print Assumptions C11_record_at_every_offset.

(* A multi-record flush (one Write call) stores the same bytes at the same positions as
   the same records written one by one. *)
Theorem C11_flush_eq_singles :
  forall crc a b fid bid bsz,
  write_all_buf crc fid bid bsz (a ++ b) =
    let '(bs1, ps1, bid1, bsz1) := write_all_buf crc fid bid bsz a in
    let '(bs2, ps2, bid2, bsz2) := write_all_buf crc fid bid1 bsz1 b in
    (bs1 ++ bs2, ps1 ++ ps2, bid2, bsz2).
Proof. exact write_all_app. Qed.
Print Assumptions C11_flush_eq_singles.

(* The writer does not depend on how many whole blocks precede it: a data file found with k
   blocks of content (k any natural number - 131072 blocks are 4 GiB) answers every history of
   writes, flushes and reopens exactly as the empty file does, with every block id shifted by k,
   the bytes appended being the same.  (The harness runs such histories on a file that begins
   with a sparse region of 4, 8 or 12 GiB and compares them with the model run at offset 0;
   reads at those positions are covered by C11_record_at_every_offset, which holds for any
   prefix.) *)
Theorem C11_whole_blocks_before_do_not_matter :
  forall crc k pre fid ops, len pre = k * blockSize ->
  df_run crc (df_open fid pre) ops =
    (shift_df k pre (fst (df_run crc (df_open fid []) ops)),
     shift_out k (snd (df_run crc (df_open fid []) ops))).
Proof. exact df_run_far. Qed.
Print Assumptions C11_whole_blocks_before_do_not_matter.
Example C11_shift_nonvacuous : len (zeros 32768) = 1 * blockSize.
Proof. apply len_zeros. Qed.

(* The chunk decoder never panics, whatever bytes it is given. *)
Theorem C11_decode_chunk_total :
  forall crc, crc_ok crc -> forall c, decode_chunk crc c <> Panic /\ decode_chunk crc c <> OutOfFuel.
Proof. intros crc _. apply decode_chunk_total. Qed.
Print Assumptions C11_decode_chunk_total.

(* Non-vacuity: a concrete two-record history, the first record ending 3 bytes before a
   block boundary (so the second one starts after padding), meets the hypotheses. *)
Example C11_nonvacuous :
  Forall fop_ok [FWrite (zeros 32758); FStage [1; 2; 3]; FFlush; FReopen; FWrite [9]; FStage [4]; FRefused; FStage [5]; FFlush] /\
  (32758 : N) < blockSize.
Proof.
  split; [|reflexivity]. constructor; [|repeat constructor]. unfold fop_ok, nonempty. rewrite len_zeros. reflexivity.
Qed.
