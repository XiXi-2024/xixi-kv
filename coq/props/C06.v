(* C06 — Merge preserves every key's value and actually reclaims the garbage.
   Property theorems only; proofs are in proofs/EngineMerge*.v, EngineAdopt.v, EngineOpen.v. *)
From KV Require Import Bytes GenConsts Chunk Record Engine Script AMapLemmas EngineInv EngineRefine EngineLog EngineRecover
  EngineCrash EngineOpen EngineAdopt EngineMerge EngineKeep EngineMergeRun EngineMergeRace.
Open Scope N_scope.

(* For every configuration and every history on a fresh database - Put, Delete, Get, ListKeys, Fold,
   Stat, Sync, batches, any number of merges (each scanning its input files in any order that covers
   them), restarts anywhere under independently chosen configurations, hence also the restart that
   adopts a merge, later restarts, and merges that were abandoned with an error - every result is the
   result of the same operations on a plain map on which Merge and Restart are the identity. *)
Theorem C06_merge_never_changes_the_mapping :
  forall c ops d k ev0 s' rs evs,
    db_open c empty_disk = (OpenOk d k, ev0) ->
    ops_ok (d, k) ops ->
    run (d, k) ops = (s', rs, evs) ->
    map proj rs = map proj (srun [] ops).
Proof.
  intros c ops d k ev0 s' rs evs Ho Hok Hrun.
  pose proof (open_empty_G c d k ev0 Ho) as HG.
  exact (proj1 (run_G ops d k [] s' rs evs HG Hok Hrun)).
Qed.
Print Assumptions C06_merge_never_changes_the_mapping.

(* One step, from any reachable state: in particular a Merge returns leaving every key's value as it
   was (whether it succeeded or reported an error), and so does the Restart that adopts it. *)
Theorem C06_step :
  forall d k M o d' k' r evs,
    G d k M -> gop_ok d o -> step (d, k) o = ((d', k'), r, evs) ->
    G d' k' (fst (sstep M o)) /\ proj r = proj (snd (sstep M o)).
Proof. exact step_G. Qed.
Print Assumptions C06_step.

(* What a successful Merge leaves behind: rewritten files 0..n-1 (n at most the id of the first file
   that did not take part) holding only plain live records - one per live key with its current value:
   replaying them yields exactly the mapping of the database - a hint file listing them in order, and
   the marker; the data directory itself is untouched. *)
Theorem C06_merge_output :
  forall d k M order d' k' evs,
    LogInv d M -> order_ok d order -> db_merge d k order = (d', k', None, evs) ->
    k_data k' = k_data k /\
    exists md, k_merge k' = Some md /\ merge_dir_ok md (d_active_id d') M.
Proof.
  intros d k M order d' k' evs HL Hord Hm.
  destruct (db_merge_out d k M order d' k' None evs HL (fun _ => Hord) Hm) as (_ & Hd & _ & _ & He). auto.
Qed.
Print Assumptions C06_merge_output.

(* The adopting Open: afterwards the directory holds the rewritten files (ids below n), nothing with
   an id from n up to the marker id, the files written after the merge, and the merge directory is
   gone. *)
Theorem C06_adoption_reclaims :
  forall k md mid n h,
    k_merge k = Some md -> m_marker md = Some mid -> 0 < mid -> m_hint md = Some h ->
    merged_ok (m_files md) n -> 0 < n -> n <= mid ->
    asc (k_data k) -> Forall file_ok (k_data k) ->
    exists data2 ev, load_merge_files k = (mkDisk data2 (Some h) None, mid, ev) /\
      below n data2 = m_files md /\ from_ mid data2 = from_ mid (k_data k) /\
      (forall id f, In (id, f) data2 -> id < n \/ mid <= id).
Proof.
  intros k md mid n h H1 H2 H3 H4 H5 H6 H7 H8 H9.
  destruct (load_merge_adopt k md mid n h H1 H2 H3 H4 H5 H6 H7 H8 H9) as (data2 & ev & A & _ & _ & B & C & D).
  exists data2, ev. auto.
Qed.
Print Assumptions C06_adoption_reclaims.

(* Writers racing with the merge scan.  Merge releases the engine lock once it has rotated the active
   file and listed its input files; Put and Delete calls of other clients then run between any two steps
   of the scan (db_merge_i: [pro] before the scan starts, one slot of [sched] before each scanned record;
   each call is one critical section, the scan consults the index once per record).  For EVERY such
   interleaving, from every reachable state: the database afterwards holds the mapping obtained by
   applying the racing calls, in the order they ran, to the mapping before the merge - they are kept with
   their final live outcome - and the state is again in the invariant G: the rewritten files together with
   everything written since the merge started replay to exactly that mapping, so the adopting restart and
   every later operation behave as C06_step says.  The merged files need not denote the mapping of any
   single instant (see the example below). *)
Theorem C06_merge_with_racing_writers :
  forall d k M order pro sched d' k' e evs,
    G d k M -> Forall (fun x => x <= d_active_id d) order -> (e = None -> order_ok d order) ->
    db_merge_i d k order pro sched = (d', k', e, evs) ->
    exists n, G d' k' (s_mops M (pro ++ concat (firstn n sched))).
Proof. exact db_merge_i_G. Qed.
Print Assumptions C06_merge_with_racing_writers.

(* Non-vacuity: a concrete history with overwrites, a delete, a batch, a merge, a write after the
   merge and two restarts runs through the model, satisfies the side conditions, and the second
   restart finds the merge directory gone. *)
Definition c06_cfg : cfg := mkCfg 200 0 0 0.
Definition c06_ops : list op :=
  [OpPut [1] [10]; OpPut [2] [20]; OpPut [1] [11]; OpDel [2]; OpBatch false 7 [BPut [3] [30]; BPut [4] [40]];
   OpMerge [0; 1; 2; 3]; OpPut [5] [50]; OpRestart c06_cfg; OpGet [1]; OpGet [3]; OpRestart c06_cfg; OpGet [5]; OpList].
Example c06_history_runs :
  match db_open c06_cfg empty_disk with
  | (OpenOk d k, _) =>
      let '(s', rs, _) := run (d, k) c06_ops in
      map proj rs = map proj (srun [] c06_ops) /\ k_merge (snd s') = None /\
      nth 8 rs (RErr None) = RVal (inl [11]) /\ nth 11 rs (RErr None) = RVal (inl [50])
  | _ => False
  end.
Proof. vm_compute. repeat split; reflexivity. Qed.

(* a merge with racing writers: key 2 is deleted before the scan reaches its record, key 3 is overwritten
   and key 6 deleted and re-put while the scan runs, key 4 is new; the rewritten files hold only key 1,
   and the live database, the adopting restart and the restart after it all expose the final mapping *)
Example c06_racing_merge_runs :
  match db_open c06_cfg empty_disk with
  | (OpenOk d k, _) =>
    let '(s1, _, _) := run (d, k) [OpPut [1] [10]; OpPut [2] [20]; OpPut [3] [30]; OpPut [1] [11]; OpPut [6] [60]] in
    let '(d2, k2, e, _) := db_merge_i (fst s1) (snd s1) [0] [MPut [4] [40]]
                             [[MDel [2]]; []; [MPut [3] [31]]; [MDel [6]]; [MPut [6] [61]]] in
    let '(s3, rs, _) := run (d2, k2) [OpGet [3]; OpRestart c06_cfg; OpGet [1]; OpGet [2]; OpGet [3]; OpGet [4]; OpGet [6];
                                      OpList; OpRestart c06_cfg; OpList] in
    d_active_id (fst s1) = 0 /\ e = None /\
    match k_merge k2 with Some md => map fst (recs_of (m_files md)) = [mkRec 0 [1] [11] 0] | None => False end /\
    map proj rs = [RVal (inl [31]); RErr None; RVal (inl [11]); RVal (inr EKeyNotFound); RVal (inl [31]);
                   RVal (inl [40]); RVal (inl [61]); RKeys [[1]; [3]; [4]; [6]]; RErr None; RKeys [[1]; [3]; [4]; [6]]]
  | _ => False
  end.
Proof. vm_compute. repeat split; reflexivity. Qed.
