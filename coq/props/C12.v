(* C12 — Damaged bytes are detected or harmless, never served as data and never a panic.
   Property theorems only (about the byte-level reader model of datafile/data_file.go and
   log_record.go; [crc] is any function, with 32-bit results where stated). *)
From Coq Require Import Lia.
From KV Require Import Bytes GenConsts Crc Chunk Record BytesLemmas ChunkProofs DamageProofs.
From KV Require FileProofs.
Open Scope N_scope.

(* No panic, whatever the bytes: every Go slice / index expression of DecodeChunk, DataReader.next,
   the scan loop of Open and Merge, and the random read readToBuf is a checked access in the model
   (out of range = the outcome Panic); on ARBITRARY file contents - altered, truncated, garbage -
   at ANY reader position none of them reaches it. *)
Theorem C12_readers_never_panic :
  forall crc (f : bytes) fid bid off,
    reader_next crc f fid bid off <> Panic /\ snd (scan crc f fid) <> SPanic /\
    forall df, read_at crc df bid off <> Panic.
Proof.
  intros. split; [apply reader_next_no_panic|]. split; [apply scan_no_panic|]. intros. apply read_at_no_panic.
Qed.
Print Assumptions C12_readers_never_panic.

(* No hang, whatever the bytes: the loops end within the bound the model gives them (one block per
   iteration of next/readToBuf; at least one chunk header per record of the scan). *)
Theorem C12_readers_terminate :
  forall crc (f : bytes) fid bid off,
    reader_next crc f fid bid off <> OutOfFuel /\ snd (scan crc f fid) <> SFuel /\
    forall df, read_at crc df bid off <> OutOfFuel.
Proof.
  intros. split; [apply reader_next_terminates|]. split; [apply scan_terminates|]. intros. apply read_at_terminates.
Qed.
Print Assumptions C12_readers_terminate.

(* Never served unchecked: a chunk is accepted only if its first four bytes are the checksum of the
   length field, type byte and payload that follow, and the payload handed on is exactly the covered
   payload.  (Every byte a reader returns went through this test, chunk by chunk: Chunk.read_chunk is
   the only source of data in reader_next / read_at.) *)
Theorem C12_accepted_chunks_carry_their_checksum :
  forall crc c d ty,
    decode_chunk crc c = Ok (d, ty) ->
    exists sum lenb rest, c = sum ++ lenb ++ [ty] ++ d ++ rest /\ len sum = 4 /\ len lenb = 2 /\
      rd16 lenb = len d /\ rd32 sum = crc (lenb ++ [ty] ++ d).
Proof. exact decode_chunk_sound. Qed.
Print Assumptions C12_accepted_chunks_carry_their_checksum.

(* ... and a record is accepted only if the key and value lengths in its header add up to exactly the
   bytes present; the key and value returned are those bytes. *)
Theorem C12_accepted_records_are_their_bytes :
  forall d r, decode_record d = Some r ->
    exists hdr, d = hdr ++ r_key r ++ r_value r /\ hd 0 hdr = r_type r /\ 0 < len hdr.
Proof. exact decode_record_sound. Qed.
Print Assumptions C12_accepted_records_are_their_bytes.

(* Detected: a chunk as written whose checksum field was replaced by any other four bytes is
   rejected with the checksum error ... *)
Theorem C12_damaged_checksum_is_detected :
  forall crc, (forall b, crc b < 4294967296) ->
  forall ty (p rest sum' : bytes),
    len p < 65536 -> len sum' = 4 -> Forall (fun x => x < 256) sum' ->
    sum' <> le32 (crc (chunk_body ty p)) ->
    decode_chunk crc (sum' ++ le16 (len p) ++ [ty] ++ p ++ rest) = Err InvalidCRC.
Proof. intros crc _. apply damaged_checksum_rejected. Qed.
Print Assumptions C12_damaged_checksum_is_detected.

(* ... and so is a chunk as written with any one byte of its type-and-payload part changed (bit flips
   included), for every checksum function that tells apart two strings differing in one byte - a
   property of CRC-32 (all error bursts of at most 32 bits are detected) that is assumed, not proved,
   here.  A change of the two length bytes re-delimits the chunk; it is then accepted only if the
   re-delimited bytes carry their checksum (first theorem above), which no theorem about an arbitrary
   32-bit checksum can exclude: that part is covered by the exhaustive single-bit sweep of the check. *)
Theorem C12_damaged_payload_is_detected :
  forall crc, (forall b, crc b < 4294967296) ->
  forall ty (p rest a b : bytes) x y,
    detects_one_byte crc -> len p < 65536 -> ty :: p = a ++ x :: b -> x <> y ->
    exists ty' p', ty' :: p' = a ++ y :: b /\
      decode_chunk crc (le32 (crc (chunk_body ty p)) ++ le16 (len p) ++ [ty'] ++ p' ++ rest) = Err InvalidCRC.
Proof. exact damaged_body_rejected. Qed.
Print Assumptions C12_damaged_payload_is_detected.

(* What the per-chunk checksum does NOT give (known finding D37; the full statement of the property fails here).
   A record of four chunks is written at the start of an empty file with the real CRC-32; block 1 of the file is
   then overwritten by a copy of block 2 (both hold one full Middle chunk, each with a valid checksum of its own).
   The positional read of the record succeeds and returns bytes that differ from what was written: nothing ties a
   chunk to its position.  Computed inside Coq on the executable model; the same file is replayed against package
   datafile on every run (corpus/C12/00_d37_block_transplant.ops), where the check reports it as a known finding. *)
Fixpoint c12_fill (n : nat) (b : N) : bytes := match n with O => [] | S m => b :: c12_fill m b end.
Definition c12_payload : bytes :=
  c12_fill (N.to_nat 32761) 1 ++ c12_fill (N.to_nat 32761) 2 ++ c12_fill (N.to_nat 32761) 3 ++ c12_fill 100 4.
Definition c12_file : bytes := df_bytes (fst (df_write crc32 (df_open 0 []) c12_payload)).
Definition c12_transplanted : bytes :=
  take 32768 c12_file ++ take 32768 (drop 65536 c12_file) ++ take 32768 (drop 65536 c12_file) ++ drop 98304 c12_file.
Lemma len_c12_fill n b : len (c12_fill n b) = N.of_nat n.
Proof. induction n as [|n IH]; [reflexivity|]. cbn [c12_fill]. rewrite len_cons, IH. lia. Qed.
Theorem C12_block_transplant_is_not_detected :
  len c12_transplanted = len c12_file /\
  bytes_eqb c12_transplanted c12_file = false /\
  (match read_at crc32 (df_open 0 c12_file) 0 0 with Ok v => bytes_eqb v c12_payload | _ => false end) = true /\
  (match read_at crc32 (df_open 0 c12_transplanted) 0 0 with
   | Ok v => negb (bytes_eqb v c12_payload) && (len v =? len c12_payload)
   | _ => false end) = true.
Proof.
  assert (L : forall b, len (c12_fill (N.to_nat 32761) b) = blockSize - chunkHeaderSize)
    by (intros; rewrite len_c12_fill, N2Nat.id; reflexivity).
  assert (L4 : 0 < len (c12_fill 100 4)) by (rewrite len_c12_fill; reflexivity).
  assert (L5 : len (c12_fill 100 4) <= blockSize - chunkHeaderSize) by (rewrite len_c12_fill; discriminate).
  (* the checksum stays folded throughout: crc32 is never run over the 32 KB chunk bodies *)
  destruct (FileProofs.block_transplant crc32 crc32_u32 _ _ _ _ (L 1) (L 2) (L 3) L4 L5) as (Hlen & Hne & Hread & Hread').
  split; [exact Hlen|]. split; [apply bytes_eqb_neq, Hne; discriminate|]. split.
  - unfold c12_file, c12_payload. rewrite Hread. apply bytes_eqb_refl.
  - unfold c12_transplanted, c12_file, c12_payload. rewrite Hread'. vm_compute. reflexivity.
Qed.
Print Assumptions C12_block_transplant_is_not_detected.

(* Non-vacuity (the real CRC-32 of the model, Crc.crc32): a written chunk decodes; with one payload bit
   flipped, with one checksum bit flipped, and cut short it is rejected. *)
Example c12_examples :
  let c := enc_chunk crc32 (0, [107; 49; 1; 2; 3]) in
  decode_chunk crc32 c = Ok ([107; 49; 1; 2; 3], 0) /\
  decode_chunk crc32 (take 9 c ++ [3] ++ drop 10 c) = Err InvalidCRC /\
  decode_chunk crc32 ([N.lxor (hd 0 c) 1] ++ drop 1 c) = Err InvalidCRC /\
  decode_chunk crc32 (take 11 c) = Err UnexpectedEOF.
Proof. vm_compute. repeat split; reflexivity. Qed.
