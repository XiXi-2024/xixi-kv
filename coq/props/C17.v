(* C17 — Stat and space accounting are exact. *)
From KV Require Import Bytes Record Engine Script EngineInv EngineRefine EngineLog EngineRecover EngineOpen
  EngineAcc.
From KV Require EngineLimit.
Open Scope N_scope.

(* what Stat reports, in terms of the state *)
Theorem C17_stat_reports_counters :
  forall d, db_stat d = (len (d_index d), len (d_older d) + 1, d_reclaim d, d_total d).
Proof. reflexivity. Qed.
Print Assumptions C17_stat_reports_counters.

(* At every step of every history of Put / Delete / overwrites / batches / rotations / Sync and
   restarts under arbitrary configurations (a history is any prefix of a script), live and right
   after a restart alike:  DiskSize = ReclaimableSize + the bytes occupied by the live records
   (the sizes of the positions the index holds), hence 0 <= ReclaimableSize <= DiskSize and
   DiskSize - ReclaimableSize is exactly the live bytes: the operand of mergeCheck never drifts. *)
Theorem C17_size_equation :
  forall c ops d k evs0 s' rs evs,
  Forall op_ok ops ->
  db_open c empty_disk = (OpenOk d k, evs0) ->
  run (d, k) ops = (s', rs, evs) ->
  d_total (fst s') = d_reclaim (fst s') + live_sum (d_index (fst s')).
Proof.
  intros c ops d k evs0 s' rs evs Hok Hopen Hrun.
  destruct (open_empty_log c _ _ _ Hopen) as [HL Hnm].
  pose proof (proj1 (db_open_acc c empty_disk d k evs0 eq_refl Hopen)) as HA0.
  exact (run_acc ops d k s' rs evs HA0 Hnm Hok Hrun).
Qed.
Print Assumptions C17_size_equation.

(* the same with merges running (no restart): Merge never touches the counters *)
Theorem C17_size_equation_with_merges :
  forall c ops d k evs0 s' rs evs,
  Forall no_restart ops ->
  db_open c empty_disk = (OpenOk d k, evs0) ->
  run (d, k) ops = (s', rs, evs) ->
  d_total (fst s') = d_reclaim (fst s') + live_sum (d_index (fst s')).
Proof.
  intros c ops d k evs0 s' rs evs Hok Hopen Hrun.
  pose proof (proj1 (db_open_acc c empty_disk d k evs0 eq_refl Hopen)) as HA0.
  exact (run_acc_live ops d k s' rs evs HA0 Hok Hrun).
Qed.
Print Assumptions C17_size_equation_with_merges.

(* KeyNum is the number of live keys of the specification map *)
Theorem C17_keynum_exact :
  forall c ops d k evs0 s' rs evs,
  Forall op_ok ops ->
  db_open c empty_disk = (OpenOk d k, evs0) ->
  run (d, k) ops = (s', rs, evs) ->
  exists m, R (fst s') m /\ len (d_index (fst s')) = len m /\ fst (sreplay [] [] (log (fst s'))) = m.
Proof.
  intros c ops d k evs0 s' rs evs Hok Hopen Hrun.
  destruct (open_empty_log c _ _ _ Hopen) as [HL Hnm].
  destruct (proj2 (run_log_state ops d k [] s' rs evs HL Hnm Hok Hrun)) as [[(HI & HO & HP & HR & Hm) Ht] _].
  eexists. split; [exact HR|]. split; [apply (db_keynum_spec _ _ HR)|exact Hm].
Qed.
Print Assumptions C17_keynum_exact.

(* Data files respect the size limit.  From an empty directory, under ANY configuration, at every step of every
   history of Put / Delete / Get / ListKeys / Fold / Stat / Sync / Merge and batches of any length (keys and values
   of up to 128 MiB together per record, 64-bit batch ids; no restart, which may change the limit): every data file -
   the active one and every rotated one - is no longer than DataFileSize, or holds a single record (plus, for a
   batch, its sealing record).  The heart is C17_estimate_covers_every_append below: what writeToBuf appends for a record - block-tail
   padding, one 7-byte header per chunk, the encoded record - never exceeds GetLogRecordDiskSize, at any offset
   (the estimate counts one header per 32768 bytes, the writer needs one per 32761: the bound on the record length
   is what makes it true, and it is explicit). *)
Theorem C17_data_files_respect_the_size_limit :
  forall c ops d0 k0 e0 d k rs evs,
  db_open c empty_disk = (OpenOk d0 k0, e0) -> Forall EngineLimit.op_small ops -> run (d0, k0) ops = ((d, k), rs, evs) ->
  (lf_size (d_active d) <= c_fsize c \/ EngineLimit.single (d_active d)) /\
  (forall i f, In (i, f) (d_older d) -> lf_size f <= c_fsize c \/ EngineLimit.single f).
Proof. exact EngineLimit.limit_from_empty. Qed.
Print Assumptions C17_data_files_respect_the_size_limit.

(* ... and across restarts: every history of the same operations (no Merge) and of restarts that reopen under any
   configuration whose DataFileSize is at least the one before (a restart that lowers the limit may find older files
   above it): every data file respects the limit of the configuration the database currently runs with, or holds a
   single record (plus a sealing record). *)
Theorem C17_data_files_respect_the_size_limit_across_restarts :
  forall c ops d0 k0 e0 d k rs evs,
  db_open c empty_disk = (OpenOk d0 k0, e0) -> EngineLimit.ops_small_r (c_fsize c) ops -> run (d0, k0) ops = ((d, k), rs, evs) ->
  (lf_size (d_active d) <= c_fsize (d_cfg d) \/ EngineLimit.single (d_active d)) /\
  (forall i f, In (i, f) (d_older d) -> lf_size f <= c_fsize (d_cfg d) \/ EngineLimit.single f).
Proof. exact EngineLimit.limit_from_empty_with_restarts. Qed.
Print Assumptions C17_data_files_respect_the_size_limit_across_restarts.

(* ... and the files a Merge rewrites (they become data files when the next Open adopts them): whenever a Merge of a
   database reached by such a history finishes, every file of its output is no longer than DataFileSize or holds a
   single record. *)
Theorem C17_rewritten_files_respect_the_size_limit :
  forall c ops d0 k0 e0 d k rs evs order d' k' evs',
  db_open c empty_disk = (OpenOk d0 k0, e0) -> Forall EngineLimit.op_small ops -> run (d0, k0) ops = ((d, k), rs, evs) ->
  db_merge d k order = (d', k', None, evs') ->
  exists md, k_merge k' = Some md /\
    forall i f, In (i, f) (m_files md) -> lf_size f <= c_fsize c \/ EngineLimit.single f.
Proof.
  intros c ops d0 k0 e0 d k rs evs order d' k' evs' Ho Hs Hr Hm.
  pose proof (EngineLimit.files_respect_the_limit c ops d0 k0 d k rs evs (proj1 (EngineLimit.open_empty_FL _ _ _ _ Ho)) Hs Hr) as HF.
  exact (EngineLimit.merge_output_respects_the_limit c d k order d' k' evs' HF Hm).
Qed.
Print Assumptions C17_rewritten_files_respect_the_size_limit.

(* the estimate covers the growth of the file, for every writer position and every record *)
Theorem C17_estimate_covers_every_append :
  forall io nm fid f r f' p evs, EngineLimit.rec_small r -> lf_append io nm fid f r = (f', p, evs) ->
  lf_size f <= lf_size f' /\ lf_size f' <= lf_size f + disk_size_estimate (len (r_key r)) (len (r_value r)).
Proof.
  intros io nm fid f r f' p evs Hs Ha. destruct (EngineLimit.lf_append_growth _ _ _ _ _ _ _ _ Hs Ha) as (A & B & _).
  split; [exact A|exact B].
Qed.
Print Assumptions C17_estimate_covers_every_append.

(* non-vacuity: with a limit of 64 bytes a 100-byte value sits alone in its file (which exceeds the limit), the
   files around it respect the limit, and a batch whose single record exceeds the limit shares its file with
   nothing but its sealing record *)
Example C17_limit_nonvacuous :
  let c := mkCfg 64 0 0 0 in
  let ops := [OpPut [107] [1; 2; 3]; OpPut [108] (repeat 7 100); OpPut [109] [4]; OpBatch false 9 [BPut [97] (repeat 8 90)]; OpPut [110] [5]] in
  Forall EngineLimit.op_small ops /\
  match db_open c empty_disk with
  | (OpenOk d0 k0, _) =>
    let '((d, _), _, _) := run (d0, k0) ops in
    map (fun x => (lf_size (snd x) <=? 64, length (lf_recs (snd x)))) (d_older d) = [(true, 1%nat); (false, 1%nat); (true, 1%nat); (true, 0%nat); (false, 2%nat)]
  | _ => False
  end.
Proof.
  split.
  - repeat constructor; unfold EngineLimit.kv_small, EngineLimit.kv_max; vm_compute; try discriminate; try reflexivity.
  - vm_compute. reflexivity.
Qed.

Example C17_nonvacuous :
  let ops := [OpPut [107] [1; 2; 3]; OpPut [107] [4]; OpDel [107]; OpBatch false 9 [BPut [97] [5]; BDel [97]]; OpRestart (mkCfg 64 0 0 0); OpStat] in
  Forall op_ok ops.
Proof. repeat constructor; discriminate. Qed.
