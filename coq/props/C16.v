(* C16 — A data directory has at most one open database at a time.  Property theorems only.
   Model: model/LockTable.v (the lock protocol of Open / Close); gen/GenOpenPaths.v is regenerated
   from func Open of db.go on every run (translator T3). *)
From Coq Require Import List NArith Bool.
From KV Require Import LockTable GenOpenPaths LockProofs.
From KV Require LockOrder GenLockPaths.
Import ListNotations.
Open Scope N_scope.

(* For every sequence of Open attempts (by any number of handles - goroutines or processes - on any
   directories, each either completing or failing during initialisation) and Closes: no directory ever
   has two holders. *)
Theorem C16_at_most_one_open_database_per_directory :
  forall ops t rs dir h1 h2, lrun [] ops = (t, rs) -> In (dir, h1) t -> In (dir, h2) t -> h1 = h2.
Proof. exact at_most_one_holder. Qed.
Print Assumptions C16_at_most_one_open_database_per_directory.

(* While a directory is held, every other Open of it returns the in-use error and changes nothing;
   an Open of a free directory either takes the lock or, when it fails for another reason, leaves
   the directory free. *)
Theorem C16_open_outcomes :
  forall t h dir fails,
    match holder t dir with
    | Some _ => lstep t (LOpen h dir fails) = (t, LInUse)
    | None => if fails then lstep t (LOpen h dir fails) = (t, LFailed)
              else lstep t (LOpen h dir fails) = ((dir, h) :: t, LOk) /\ holder ((dir, h) :: t) dir = Some h
    end.
Proof. exact open_outcomes. Qed.
Print Assumptions C16_open_outcomes.

(* Close releases exactly the directories its handle held. *)
Theorem C16_close_releases :
  forall t h dir, LInv t -> holds t h = true ->
    lstep t (LClose h) = (release t h, LOk) /\
    (holder t dir = Some h -> holder (release t h) dir = None) /\
    (forall h', h' <> h -> holder t dir = Some h' -> holder (release t h) dir = Some h').
Proof. exact close_releases. Qed.
Print Assumptions C16_close_releases.

(* The model's "a failed Open leaves the directory free" is what the source does on EVERY exit path of
   func Open: the paths extracted from the current source (line, after the lock was taken?, returns the
   database?, was "opened = true" executed?) and the presence of the deferred "Unlock unless opened"
   right after the lock is taken satisfy: no success before the lock; after the lock a success has
   opened = true (the lock is kept), a failure has opened = false under the deferred Unlock. *)
Theorem C16_every_exit_path_of_Open_handles_the_lock :
  forallb (exit_ok open_defer_guard) open_exits = true /\ (0 < length open_exits)%nat /\
  existsb (fun e => e_after_lock e && e_success e) open_exits = true /\
  existsb (fun e => e_after_lock e && negb (e_success e)) open_exits = true.
Proof. vm_compute. repeat split; reflexivity || (repeat constructor). Qed.
Print Assumptions C16_every_exit_path_of_Open_handles_the_lock.

(* The model's "Close releases the lock" is what the source does on EVERY exit path of DB.Close,
   also on those that report an I/O error of a data file: on each return statement extracted from the
   current source the release is guaranteed (a deferred function registered earlier calls
   fileLock.Unlock, or an explicit Unlock precedes the return in an enclosing block).  The check
   additionally makes a Close fail for real (the descriptor of a data file is replaced, so its fsync
   fails) and lets another process open the directory afterwards. *)
Theorem C16_every_exit_path_of_Close_releases_the_lock :
  forallb ce_released close_exits = true /\ (0 < length close_exits)%nat.
Proof. vm_compute. split; [reflexivity|repeat constructor]. Qed.
Print Assumptions C16_every_exit_path_of_Close_releases_the_lock.

(* Close takes the engine lock before it releases the directory: it can do so only if no call leaves the engine lock
   behind.  Every branch-free path of every exported call, extracted from the current source by translator T2b
   (gen/GenLockPaths.v), releases every lock it takes and ends holding nothing (the discipline of C09: a path that
   returns with the engine lock held is rejected). *)
Theorem C16_no_call_returns_with_the_engine_lock_held :
  forallb (LockOrder.ordered_b []) GenLockPaths.api_paths = true /\ Nat.leb 30 (length GenLockPaths.api_paths) = true.
Proof. vm_compute. split; reflexivity. Qed.
Print Assumptions C16_no_call_returns_with_the_engine_lock_held.

(* Non-vacuity: two directories, a rejected second Open, a failed Open, reopen after Close. *)
Example c16_run :
  snd (lrun [] [LOpen 1 0 false; LOpen 2 0 false; LOpen 3 1 true; LOpen 4 1 false; LClose 1; LOpen 5 0 false; LClose 9])
  = [LOk; LInUse; LFailed; LOk; LOk; LOk; LNotOpen].
Proof. reflexivity. Qed.
